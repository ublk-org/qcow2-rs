(* C12 (part)  Metadata growth at the level of the device model (Model/Dev.v): turning a free host cluster into a
   metadata cluster (new L2 table, new refcount block, relocated table - what the correspondence check absorbs as
   `grow` steps when the flushed file shows them) keeps refcounts exact and single ownership, changes no guest
   content, and is refused for a cluster that is not free.  That the library's growth paths complete without error
   and are crash-safe is explored (checks/c12.py; known finding F11), not proved. *)
From Coq Require Import NArith List.
From Q.Model Require Import Dev.
From Q.Proofs Require Import DevProps.
Open Scope N_scope.

Theorem C12_growth_keeps_invariant : forall c s h s', Inv c s -> grow s h = Some s' -> Inv c s'.
Proof. exact grow_inv. Qed.

Theorem C12_growth_keeps_content : forall c s h s', grow s h = Some s' -> forall b, read_block c s' b = read_block c s b.
Proof. exact grow_read. Qed.

Theorem C12_growth_needs_free_cluster : forall s h s', grow s h = Some s' -> s_rc s h = 0 /\ s_meta s h = false.
Proof.
  intros s h s' G. unfold grow in G. destruct (free s h) eqn:F; [|discriminate]. exact (proj1 (free_spec s h) F).
Qed.

Print Assumptions C12_growth_keeps_invariant.
Print Assumptions C12_growth_keeps_content.
Print Assumptions C12_growth_needs_free_cluster.
