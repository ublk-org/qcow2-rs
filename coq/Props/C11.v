(* C11  discard contract at the level of the device model: whole clusters inside the range clipped to the
   virtual size that own an uncompressed host cluster read as zeros afterwards, every other block keeps its
   value, refcounts stay exact (the released cluster is free). *)
From Coq Require Import NArith List Bool.
From Q.Model Require Import Dev.
From Q.Proofs Require Import DevProps.
Open Scope N_scope.

Theorem C11_discard_read : forall c s off len,
  Inv c s -> 0 < c_bpc c -> c_vblocks c <= c_nclu c * c_bpc c ->
  forall b, read_block c (discard c s off len) b =
            if in_discard c off len (b / c_bpc c) && owns_b (s_map s (b / c_bpc c)) then 0 else read_block c s b.
Proof. intros c s off len I _ _. apply (discard_ok c s off len I). Qed.

Theorem C11_discard_inv : forall c s off len,
  Inv c s -> 0 < c_bpc c -> c_vblocks c <= c_nclu c * c_bpc c -> Inv c (discard c s off len).
Proof. intros c s off len I _ _. apply (discard_ok c s off len I). Qed.

(* zero length, and ranges that contain no whole cluster, change nothing *)
Corollary C11_noop : forall c s off len,
  Inv c s -> 0 < c_bpc c -> c_vblocks c <= c_nclu c * c_bpc c ->
  (len = 0 \/ snd (discard_range c off len) <= fst (discard_range c off len)) ->
  forall b, read_block c (discard c s off len) b = read_block c s b.
Proof.
  intros c s off len _ _ _ H b. unfold discard. destruct (discard_range c off len) as [start stop]. cbn [fst snd] in H.
  replace ((len =? 0) || (stop <=? start)) with true; [reflexivity|].
  symmetry. apply orb_true_iff. rewrite N.eqb_eq, N.leb_le. exact H.
Qed.

Print Assumptions C11_discard_read.
Print Assumptions C11_discard_inv.
Print Assumptions C11_noop.
