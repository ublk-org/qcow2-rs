(* C05 (part)  At the level of metadata cells (Model/Crash.v): a mapping slot that no later request writes keeps its
   synced value in EVERY later crash state, whatever else is in flight (any prefix of the later log, any subset of
   the pending writes).  The check decodes the library's request log (lib/cells.py) and verifies, for every sync
   point, that the slots of guest clusters which no later operation targets are not written again; a slot that is
   written again yields a crash image that the real library must still read correctly (checks/c04.py, C05 branch).
   That the data clusters themselves are not overwritten, and the behaviour of the real reader on the crash image,
   are explored (crash images opened by the library), not proved. *)
From Coq Require Import NArith List.
From Q.Model Require Import Crash.
From Q.Proofs Require Import CrashProps.
Import ListNotations.
Open Scope N_scope.

Theorem C05_synced_mapping_survives : forall i s evs,
  forallb (fun e => negb (writes_slot i e)) evs = true ->
  forall k m, let st := crun s [] (firstn k evs) in
  get_sl (apply_masked (fst st) (snd st) m) i = get_sl s i.
Proof. exact synced_slot_survives. Qed.

Print Assumptions C05_synced_mapping_survives.
