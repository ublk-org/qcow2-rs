(* C08  Host clusters have exactly one owner; the allocator never double-allocates.  Model-level statements:
   in every reachable state the stored refcount of every host cluster equals the number of references to it,
   an uncompressed guest cluster is the only owner of its host cluster, and a host cluster accepted for a new
   allocation was free (refcount 0, not metadata, referenced by nobody).  The correspondence check replays the
   library's own allocation choices through this guard. *)
From Coq Require Import NArith List Bool.
From Q.Model Require Import Dev.
From Q.Proofs Require Import DevProps.
Open Scope N_scope.

Theorem C08_reachable_inv : forall c ops s s',
  cfg_ok c -> Inv c s -> Forall (op_ok c) ops -> run c s ops = Some s' -> Inv c s'.
Proof. exact run_inv. Qed.

(* what the invariant says about ownership *)
Theorem C08_single_owner : forall c s gc gc' h,
  Inv c s -> gc < c_nclu c -> s_rc s h = 1 -> touches (s_map s gc) h = true ->
  (gc' <> gc -> touches (s_map s gc') h = false) /\ s_meta s h = false.
Proof. exact unique_owner. Qed.

Theorem C08_alloc_was_free : forall c s gc off len v hn s',
  Inv c s -> write_cluster c s gc off len v hn = Some s' ->
  (forall h, s_map s gc <> CData h) -> (forall h, s_map s gc <> CZeroPre h) ->
  s_rc s hn = 0 /\ s_meta s hn = false /\ (forall g, touches (s_map s g) hn = false) /\ s_map s' gc = CData hn.
Proof. exact alloc_was_free. Qed.

(* a released cluster is free again: after a discard of an owned cluster its refcount is 0 *)
Theorem C08_release : forall c s gc h,
  Inv c s -> gc < c_nclu c -> s_map s gc = CData h -> c_backing c = false ->
  s_rc (discard_cluster c s gc) h = 0 /\ s_map (discard_cluster c s gc) gc = CUn.
Proof.
  intros c s gc h I Hgc M B. unfold discard_cluster. rewrite M, B. cbn [s_rc s_map].
  rewrite !upd_same. rewrite (inv_one c s I gc h Hgc (or_introl M)). split; reflexivity.
Qed.

Print Assumptions C08_reachable_inv.
Print Assumptions C08_single_owner.
Print Assumptions C08_alloc_was_free.
Print Assumptions C08_release.

(* ---- the allocator's scans over one refcount slice (Model/Alloc.v; compared with RefBlock::get_free_range /
   get_tail_free_range / alloc_range of the compiled code on random slices by checks/c08.py) ---- *)
From Q.Model Require Import Alloc.
From Q.Proofs Require Import AllocProps.

Theorem C08_scan_hands_out_free_entries : forall l start count a b,
  (start + count <= length l)%nat ->
  get_free_range l start count = Some (a, b) ->
  b = (a + count)%nat /\ (start <= a)%nat /\ (b <= length l)%nat /\
  (forall j, (a <= j < b)%nat -> rc_at l j = 0%N) /\
  (forall s, (start <= s < a)%nat -> exists j, (s <= j < s + count)%nat /\ rc_at l j <> 0%N).
Proof. exact get_free_range_sound. Qed.

Theorem C08_scan_complete : forall l start count,
  (start + count <= length l)%nat ->
  get_free_range l start count = None ->
  forall s, (start <= s)%nat -> (s + count <= length l)%nat -> exists j, (s <= j < s + count)%nat /\ rc_at l j <> 0%N.
Proof. exact get_free_range_complete. Qed.

Theorem C08_tail_scan : forall l a b,
  get_tail_free_range l = Some (a, b) ->
  b = length l /\ (0 < a < b)%nat /\ rc_at l (a - 1) <> 0%N /\ forall j, (a <= j < b)%nat -> rc_at l j = 0%N.
Proof. exact get_tail_free_range_sound. Qed.

Theorem C08_alloc_range_increments : forall n l s j,
  (s + n <= length l)%nat ->
  rc_at (alloc_range l s n) j = if (Nat.leb s j) && (Nat.ltb j (s + n)%nat) then (rc_at l j + 1)%N else rc_at l j.
Proof. exact alloc_range_spec. Qed.

Print Assumptions C08_scan_hands_out_free_entries.
Print Assumptions C08_scan_complete.
Print Assumptions C08_tail_scan.
Print Assumptions C08_alloc_range_increments.
