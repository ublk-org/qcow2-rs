(* C10  Copy-on-write merges correctly, at the level of the device model: after a write that covers part of a
   cluster whose content comes from the backing chain or from a compressed cluster, every block of that
   cluster outside the written range still reads as the source content, and the host clusters of the replaced
   compressed cluster lose exactly one reference each. *)
From Coq Require Import NArith List.
From Q.Model Require Import Dev.
From Q.Proofs Require Import DevProps.
Open Scope N_scope.

Theorem C10_cow_keeps_source : forall c s off len v ch s',
  Inv c s -> 0 < c_bpc c -> off + len <= c_nclu c * c_bpc c ->
  write c s off len v ch = Some s' ->
  forall b, inr off len b = false -> read_block c s' b = read_block c s b.
Proof.
  intros c s off len v ch s' I Hb Hle W b Hout.
  rewrite (proj2 (write_ok c s off len v ch s' I Hb Hle W) b), Hout. reflexivity.
Qed.

Theorem C10_compressed_released_once : forall c s gc off len v hn s' h0 k,
  Inv c s -> gc < c_nclu c -> s_map s gc = CComp h0 k ->
  write_cluster c s gc off len v hn = Some s' ->
  forall h, s_rc s' h = if h =? hn then 1 else if touches (CComp h0 k) h then s_rc s h - 1 else s_rc s h.
Proof.
  intros c s gc off len v hn s' h0 k I Hgc M W h.
  destruct (write_cluster_shape c s gc off len v hn s' W) as (hx & _ & _ & [[O _]|(_ & F & ->)] & _).
  - rewrite M in O. destruct O; discriminate.
  - pose proof (free_untouched c s hn gc I F) as T. rewrite M in *.
    destruct (N.eqb_spec h hn) as [->|Hne]; [rewrite T; apply upd_same|]. rewrite !upd_other by exact Hne. reflexivity.
Qed.

Print Assumptions C10_cow_keeps_source.
Print Assumptions C10_compressed_released_once.
