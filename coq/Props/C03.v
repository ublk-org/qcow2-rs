(* C03  What the independent checker's verdict means.  `validb` (Spec/Image.v, extracted to OCaml and run on every
   flushed file) enumerates the references and the clusters covered by refcount blocks; these theorems lift its
   verdict to EVERY host cluster: stored refcount = number of references from header, refcount table, L1 table,
   refcount blocks, L2 tables and (compressed) data, hence neither leaked nor under-counted clusters anywhere;
   and a cluster referenced through a COPIED entry is referenced exactly once.  The structural part of validb
   (tables_ok: alignment, reserved bits, COPIED on allocated standard clusters, nothing mapped beyond the virtual
   size) is an executable reading of the format text and has no further theorem.
   That the LIBRARY produces such files is explored (sampled histories), not proved. *)
From Coq Require Import NArith List.
From Q.Spec Require Import Image.
From Q.Proofs Require Import SpecProps.
Open Scope N_scope.

Theorem C03_checker_sound : forall rd h,
  validb rd h = true ->
  (forall c, stored rd h c = refs rd h c) /\ (forall c, In c (copied_refs rd h) -> refs rd h c = 1).
Proof. exact validb_sound. Qed.

Theorem C03_no_leak_no_undercount : forall rd h c,
  validb rd h = true -> (refs rd h c = 0 -> stored rd h c = 0) /\ refs rd h c <= stored rd h c.
Proof.
  intros rd h c V. destruct (validb_sound rd h V) as [E _]. rewrite (E c). split; [auto|apply N.le_refl].
Qed.

Print Assumptions C03_checker_sound.
Print Assumptions C03_no_leak_no_undercount.
