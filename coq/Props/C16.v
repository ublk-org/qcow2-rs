(* C16 (part)  Alignment provenance over the address arithmetic (Model/Codec.v, equal to the regenerated Rust functions
   by Proofs/GenEq.v): with block size <= cluster size (and <= slice size), a block-aligned guest offset gives a
   block-aligned host offset for data I/O through a cluster-aligned (specification-valid) L2 entry, and L2 / refcount
   slices start at block-aligned host offsets in cluster-aligned tables, have a block-multiple length and end inside their
   table cluster.  Data lengths and buffer addresses, the bounce
   buffers of compressed reads and the header write are not covered by a theorem: every request of sampled histories
   is checked against the alignment predicate (checks/c16.py). *)
From Coq Require Import NArith Lia.
From Q.Model Require Import Codec.
From Q.Proofs Require Import Geometry AlignProps.
Open Scope N_scope.

Theorem C16_data_offset_aligned : forall i v g h,
  info_rng i -> block_size_shift i <= cluster_shift i ->
  g mod 2 ^ block_size_shift i = 0 ->
  l2_cluster_offset v mod 2 ^ cluster_shift i = 0 ->
  m_plain_offset (l2_into_mapping i v g) (sg_in_cluster_offset i g) = Some h ->
  h mod 2 ^ block_size_shift i = 0.
Proof. exact data_offset_aligned. Qed.

Theorem C16_l2_slice_offset_aligned : forall i g tbl,
  info_rng i -> block_size_shift i <= l2_slice_bits i -> tbl mod 2 ^ cluster_shift i = 0 ->
  (tbl + sg_l2_slice_off_in_table i g) mod 2 ^ block_size_shift i = 0.
Proof. intros i g tbl R Hle Ht. lin R. apply (slice_offset_aligned _ _ _ (cluster_shift i)); [lia|exact Ht]. Qed.

Theorem C16_rb_slice_offset_aligned : forall i hc tbl,
  info_rng i -> block_size_shift i <= rb_slice_bits i -> tbl mod 2 ^ cluster_shift i = 0 ->
  (tbl + hc_rb_slice_off_in_table i hc) mod 2 ^ block_size_shift i = 0.
Proof. intros i hc tbl R Hle Ht. lin R. apply (slice_offset_aligned _ _ _ (cluster_shift i)); [lia|exact Ht]. Qed.

Theorem C16_l2_slice_inside_table : forall i g,
  info_rng i -> sg_l2_slice_off_in_table i g + 2 ^ l2_slice_bits i <= 2 ^ cluster_shift i.
Proof. intros i g R. lin R. apply (slice_off_fits _ (l2_index_shift i) _ _ (cluster_shift i)); [lia..|apply l2_index_lt, R]. Qed.

Theorem C16_rb_slice_inside_table : forall i h,
  info_rng i -> hc_rb_slice_off_in_table i h + 2 ^ rb_slice_bits i <= 2 ^ cluster_shift i.
Proof. intros i h R. lin R. apply (slice_off_fits _ (rb_index_shift i) _ _ (cluster_shift i)); [lia..|apply rb_index_lt, R]. Qed.

Theorem C16_slice_len_aligned : forall i,
  info_rng i ->
  (block_size_shift i <= l2_slice_bits i -> 2 ^ l2_slice_bits i mod 2 ^ block_size_shift i = 0) /\
  (block_size_shift i <= rb_slice_bits i -> 2 ^ rb_slice_bits i mod 2 ^ block_size_shift i = 0).
Proof. intros i _. split; apply slice_len_aligned. Qed.

Print Assumptions C16_data_offset_aligned.
Print Assumptions C16_l2_slice_offset_aligned.
Print Assumptions C16_rb_slice_offset_aligned.
Print Assumptions C16_l2_slice_inside_table.
Print Assumptions C16_slice_len_aligned.
Print Assumptions C16_rb_slice_inside_table.
