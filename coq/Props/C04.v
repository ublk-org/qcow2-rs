(* C04  What `safeb` means: the crash images accepted by the extracted checker have no under-counted host cluster
   at all (leaks are allowed).  That every crash state of the LIBRARY is accepted is explored (checks/crash.py:
   prefix x subsets / tearing of un-synced requests) and, for the refcount >= references part, lifted to EVERY
   subset of EVERY prefix of a request log by the discipline theorem below: the check decodes the library's request
   log into cell writes (lib/cells.py, tied to the images at each sync point), runs the extracted `disciplined` on
   it, and searches for a concrete unsafe crash image when it answers false. *)
From Coq Require Import NArith List.
Import ListNotations.
From Q.Spec Require Import Image Cells.
From Q.Proofs Require Import SpecProps CrashProps.
From Q.Model Require Crash.
Open Scope N_scope.

Theorem C04_checker_sound : forall rd h,
  safeb rd h = true -> forall c, refs rd h c <= stored rd h c.
Proof. exact safeb_sound. Qed.

Print Assumptions C04_checker_sound.

(* all crash states (any prefix k of the log, any subset m of the writes pending there) of a disciplined log *)
Theorem C04_disciplined_log_every_crash_state_safe : forall dom s evs,
  Crash.disciplined dom s evs = true ->
  forall k m, let st := Crash.crun s [] (firstn k evs) in
  Crash.safe dom (Crash.apply_masked (fst st) (snd st) m).
Proof. exact disciplined_all_crash_states_safe. Qed.

Print Assumptions C04_disciplined_log_every_crash_state_safe.

(* and the check is exact for the cell model: a rejected log has an unsafe crash state (of cells; the check then
   searches the real request log for a crash image that realises it) *)
Theorem C04_rejected_log_has_unsafe_crash_state : forall dom s evs,
  Crash.disciplined dom s evs = false ->
  exists k m, ~ Crash.safe dom (Crash.apply_masked (fst (Crash.crun s [] (firstn k evs))) (snd (Crash.crun s [] (firstn k evs))) m).
Proof. exact disciplined_false_unsafe. Qed.

Print Assumptions C04_rejected_log_has_unsafe_crash_state.

(* the ordering the library aims at (refcount increments, sync, mappings, sync, refcount decrements) is crash safe
   for EVERY batch whose counts cover the mixtures of old and new mappings *)
Theorem C04_ordered_flush_protocol_safe : forall dom s incs sets decs,
  Inv dom s [] ->
  (forall p, In p incs -> Crash.crefs dom s (fst p) <= snd p) ->
  (forall h, Crash.refs_max dom (Crash.apply_all s (rc_evs incs)) (sl_evs sets) h <= Crash.get_rc (Crash.apply_all s (rc_evs incs)) h) ->
  (forall p, In p decs -> Crash.crefs dom (Crash.apply_all (Crash.apply_all s (rc_evs incs)) (sl_evs sets)) (fst p) <= snd p) ->
  forall k m, let st := Crash.crun s [] (firstn k (protocol incs sets decs)) in
  Crash.safe dom (Crash.apply_masked (fst st) (snd st) m).
Proof. exact protocol_every_crash_state_safe. Qed.

Print Assumptions C04_ordered_flush_protocol_safe.

(* what `safe` means on the abstraction of an image: the specification's own `references <= stored refcount`.
   (`cells` is extracted; at every sync point the state the log decoder has reached must equal `cells` of the
   durable image - checks/crash.py, lib/cells.py: check_syncs_coq.) *)
Theorem C04_cell_abstraction_meaning : forall rd h, nodupb (cells_dom rd h) = true ->
  (Crash.safe (cells_dom rd h) (cells rd h) <-> forall c, refs rd h c <= stored rd h c).
Proof. exact cells_safe_iff. Qed.

Print Assumptions C04_cell_abstraction_meaning.
