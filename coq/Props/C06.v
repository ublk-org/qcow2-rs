(* C06 (part)  The slice cache never evicts an entry that is in use, hands every dirty victim back for
   write-back, and stays within its limit unless everything is in use.  These are statements about the model of
   src/cache.rs (Model/Cache.v), which checks/cachesim.py compares with the code through the cfg-gated hook
   cache::verif::cache_script.  Linearizability of whole operations under all interleavings is NOT covered by a
   theorem: it is explored by the deterministic-scheduler check (checks/conc.py). *)
From Coq Require Import NArith List.
From Q.Model Require Import Cache.
From Q.Proofs Require Import CacheProps.
Import ListNotations.
Open Scope N_scope.

Theorem C06_no_in_use_eviction : forall s o s',
  uniq (c_ents s) -> cstep s o = Some s' ->
  uniq (c_ents s') /\ forall k, held_in (c_ents s) k -> has_in (c_ents s') k.
Proof. exact cstep_keeps_held. Qed.

Theorem C06_dirty_victims_returned : forall s k0 evs k,
  In k (returned s (CLoad k0 evs)) <-> In k evs /\ exists e, find s k = Some e /\ e_dirty e = true.
Proof. exact returned_spec. Qed.

Theorem C06_cache_bound : forall s k evs s',
  uniq (c_ents s) -> has s k = false -> cstep s (CLoad k evs) = Some s' ->
  len s' <= c_limit s \/ forall e, In e (c_ents s') -> e_key e <> k -> e_hold e <> 0.
Proof. intros s k evs s' U _ S. apply (load_accepted s k evs s' U S). Qed.

(* non-vacuity: a script with a held entry and a dirty victim is accepted; evicting the held entry is refused *)
Example C06_nonvacuous :
  check_script (cinit 2)
    [(CLoad 1 [], [1], []); (CLoad 2 [], [1; 2], []); (CHold 1, [1; 2], []); (CDirty 2, [1; 2], []);
     (CLoad 3 [2], [1; 3], [2])] 0 = None /\
  check_script (cinit 2)
    [(CLoad 1 [], [1], []); (CLoad 2 [], [1; 2], []); (CHold 1, [1; 2], []); (CGet 2, [1; 2], []);
     (CLoad 3 [1], [2; 3], [])] 0 = Some 4.
Proof. vm_compute. split; reflexivity. Qed.

Print Assumptions C06_no_in_use_eviction.
Print Assumptions C06_dirty_victims_returned.
Print Assumptions C06_cache_bound.
