(* C17 (part)  Over the abstract write-back model (Model/Flush.v): after a failed flush every slice that still differs
   from the file is still marked dirty and the flag is set, so repeating flush_meta writes it; right after a
   successful flush_meta (also one that follows failed ones) nothing differs from the file.  That the library's
   calls return Err without panicking, stay usable and leave only leaked clusters is enumerated over the request
   stream of sampled histories (checks/c17.py), not proved. *)
From Coq Require Import NArith List.
From Q.Model Require Import Flush.
From Q.Proofs Require Import FlushProps.
Import ListNotations.
Open Scope N_scope.

Theorem C17_failed_flush_keeps_marks : forall ops w k,
  unsynced (frun finit (ops ++ [FFlushFail w])) k = true ->
  dirty (frun finit (ops ++ [FFlushFail w])) k = true /\ flag (frun finit (ops ++ [FFlushFail w])) = true.
Proof. intros ops w. apply unsynced_marked. Qed.

Theorem C17_retry_reaches_the_file : forall ops k, unsynced (frun finit (ops ++ [FFlushOk])) k = false.
Proof. intros ops k. apply flag_false_clean. rewrite frun_snoc. reflexivity. Qed.

(* content form (Model/Flush.v: cst): a step, failed or not, leaves in the file for every slice either the old value or
   the value the running device reads *)
Theorem C17_file_holds_old_or_current : forall s o k,
  file (cstep s o) k = file s k \/ file (cstep s o) k = mem (cstep s o) k.
Proof. exact cstep_file_old_or_current. Qed.

Print Assumptions C17_failed_flush_keeps_marks.
Print Assumptions C17_retry_reaches_the_file.
Print Assumptions C17_file_holds_old_or_current.
