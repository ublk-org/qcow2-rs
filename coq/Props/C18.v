(* C18 (part)  Over the abstract write-back model (Model/Flush.v: cached slices with dirty marks, the need-flush flag,
   write-back by flush_meta or eviction, each possibly failing): whenever the flag is false no cached slice differs
   from the file; right after a successful flush_meta nothing differs from the file; a failed write keeps its marks.
   The model is sequential: what concurrent operations do to the flag is explored under the deterministic scheduler
   (checks/c18.py).  Tie to the code: the cfg-gated hook Qcow2Dev::verif_dirty_counts lets every check that samples
   need_flush_meta() also observe "flag false => no dirty slice, no dirty top-table block". *)
From Coq Require Import NArith List.
From Q.Model Require Import Flush.
From Q.Proofs Require Import FlushProps.
Import ListNotations.
Open Scope N_scope.

Theorem C18_flag_false_means_clean : forall ops k,
  flag (frun finit ops) = false -> unsynced (frun finit ops) k = false.
Proof. exact flag_false_clean. Qed.

Theorem C18_invariant : forall ops, FInv (frun finit ops).
Proof. intros ops. exact (frun_inv ops finit finit_inv). Qed.

Example C18_nonvacuous :
  let s := frun finit [FUpdate 3; FUpdate 5; FEvictFail 3; FFlushFail [5]; FUpdate 7] in
  flag s = true /\ unsynced s 3 = true /\ dirty s 3 = true /\ unsynced s 5 = false /\
  flag (frun finit [FUpdate 3; FFlushOk]) = false.
Proof. vm_compute. repeat split; reflexivity. Qed.

(* the boolean model is a sound abstraction of the content-carrying one (Model/Flush.v: cst): `unsynced = false` there
   means the file holds what the running device reads; so flag false => file = running view, for every history *)
Theorem C18_boolean_model_abstracts_content : forall f ops k,
  unsynced (frun finit (map cabs ops)) k = false -> file (crun_ (cinit f) ops) k = mem (crun_ (cinit f) ops) k.
Proof. intros f ops. apply sim_clean, sim_run, sim_init. Qed.

Theorem C18_flag_false_file_equals_running_view : forall f ops k,
  cflag (crun_ (cinit f) ops) = false -> file (crun_ (cinit f) ops) k = cref f ops k.
Proof. exact cflag_false_file_is_reference. Qed.

Print Assumptions C18_flag_false_means_clean.
Print Assumptions C18_invariant.
Print Assumptions C18_boolean_model_abstracts_content.
Print Assumptions C18_flag_false_file_equals_running_view.
