(* C01  Sequential reads equal a flat reference disk.  Statements about the cluster-level device model
   (Model/Dev.v): mapping per guest cluster (unallocated / zero / preallocated zero / data / compressed), host
   refcounts, host data, backing content, with the host cluster of every allocation chosen by an oracle that
   only has to pass the model's guard.  The model is tied to the library by checks/devsim.py. *)
From Coq Require Import NArith List.
From Q.Model Require Import Dev.
From Q.Proofs Require Import DevProps.
Import ListNotations.
Open Scope N_scope.

(* one step: the guest view after a step is the flat view of the step applied to the guest view before it:
   a write replaces exactly the written blocks, a discard zeroes exactly the whole covered clusters that own
   an uncompressed host cluster, metadata growth changes nothing *)
Theorem C01_step : forall c s o s',
  cfg_ok c -> Inv c s -> op_ok c o -> step c s o = Some s' ->
  forall b, read_block c s' b = flat_step c s o (read_block c s) b.
Proof. exact step_read. Qed.

(* every history, every allocation choice accepted by the guard *)
Theorem C01_history : forall c ops s s',
  cfg_ok c -> Inv c s -> Forall (op_ok c) ops -> run c s ops = Some s' ->
  forall b, read_block c s' b = flat_run c s ops (read_block c s) b.
Proof. exact run_read. Qed.

(* read-your-writes and frame for a write, spelled out *)
Theorem C01_write : forall c s off len v ch s',
  Inv c s -> 0 < c_bpc c -> off + len <= c_nclu c * c_bpc c ->
  write c s off len v ch = Some s' ->
  forall b, read_block c s' b = if inr off len b then v b else read_block c s b.
Proof. intros c s off len v ch s' I Hb Hle W. apply (write_ok c s off len v ch s' I Hb Hle W). Qed.

(* the initial state loaded from an image file satisfies the invariant when the executable check says so *)
Theorem C01_initial : forall c maps rcs metas host,
  invb c maps rcs metas = true -> Inv c (mk_state maps rcs metas host).
Proof. exact invb_sound. Qed.

(* non-vacuity: a concrete history on a fresh 4-cluster image passes every guard and reads back *)
Example C01_nonvacuous :
  let c := {| c_bpc := 2; c_nclu := 4; c_vblocks := 8; c_backing := false; c_v2 := false;
              c_back := fun _ => 0; c_comp := fun _ _ => 0 |} in
  let s0 := mk_state [] [1; 1; 1; 1; 0; 0; 0; 0] [true; true; true; true] (fun _ _ => 0) in
  invb c [] [1; 1; 1; 1; 0; 0; 0; 0] [true; true; true; true] = true /\
  match run c s0 [OWrite 1 3 (fun b => 100 + b) (fun gc => 4 + gc); ODiscard 0 2; OWrite 2 1 (fun _ => 7) (fun _ => 9)] with
  | Some s => map (read_block c s) [0; 1; 2; 3; 4; 5] = [0; 0; 7; 103; 0; 0] /\ s_rc s 4 = 0 /\ s_rc s 5 = 1
  | None => False
  end.
Proof. vm_compute. repeat split; reflexivity. Qed.

Print Assumptions C01_step.
Print Assumptions C01_history.
Print Assumptions C01_write.
Print Assumptions C01_initial.
