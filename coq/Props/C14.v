(* C14 (part)  Every header the specification reading puts in the supported set (hdr_features_ok: magic, version 2/3,
   cluster_bits 9..21, refcount_order <= 6, no encryption / incompatible features / foreign compression, aligned
   tables, table sizes and virtual size within the format limits) gives, with any legal device parameters, a geometry
   inside the range hypotheses of the codec and argument-check theorems (Props/C15.v, Props/C13.v), and a virtual
   size <= 2^61: so those theorems apply to every image the library may accept.  That from_buf accepts exactly this
   set and never panics is checked by differential fuzzing (checks/c14.py), not proved: the header parser is not
   translated. *)
From Coq Require Import NArith List Lia.
From Q.Model Require Import Codec.
From Q.Spec Require Import Image.
From Q.Proofs Require Import Geometry HdrProps.
Open Scope N_scope.

Theorem C14_supported_header_in_range : forall h bs l2sb l2cnt rbsb rbcnt fl,
  hdr_features_ok h = true ->
  9 <= bs <= 12 -> bs <= l2sb <= h_cb h -> bs <= rbsb <= h_cb h ->
  let i := info_of (h_cb h) (h_ro h) (h_size h) bs l2sb l2cnt rbsb rbcnt fl in
  info_rng i /\ virtual_size i <= 2 ^ 63.
Proof. exact supported_header_geometry. Qed.

Theorem C14_size_bound : forall h, hdr_features_ok h = true -> h_size h <= 2 ^ 61.
Proof. exact size_bound. Qed.

Print Assumptions C14_supported_header_in_range.
Print Assumptions C14_size_bound.

(* ---- over the REGENERATED Qcow2Info::new: for every header view in range and every legal parameter set it returns
   Ok(info) with a geometry inside info_rng (the hypotheses of Props/C13.v and Props/C15.v), never a panic ---- *)
From Q.Base Require Import RExpr.
From Q.Gen Require Import GenCodec.
From Q.Proofs Require Import GeqMore.
Import ListNotations.

Theorem C14_info_new_in_range : forall cb ro size hb bs rbc l2c rdonly backing,
  9 <= cb <= 21 -> ro <= 6 -> size < 2 ^ 64 -> 9 <= bs <= 12 -> bs <= cb ->
  param_ok rbc bs cb -> param_ok l2c bs cb ->
  snd (cache_geom rbc 262144 bs cb) < 2 ^ 32 ->
  snd (cache_geom l2c (N.min (N.shiftr size (cb - 3)) 33554432) bs cb) < 2 ^ 32 ->
  (backing = true -> rdonly = true) ->
  exists i, call g_Qcow2Info_new [v_hdrview cb ro size hb; v_params bs rbc l2c rdonly backing] = Ret (VRes (inl (v_info i)))
            /\ info_rng i /\ virtual_size i = size.
Proof.
  intros cb ro size hb bs rbc l2c rdonly backing Hcb Hro Hs Hbs Hbc Hp1 Hp2 Hc1 Hc2 Hback.
  exists (info_new2 cb ro size hb bs rbc l2c rdonly backing). split; [apply geq_info_new; assumption|].
  pose proof (cache_geom_fst l2c (N.min (N.shiftr size (cb - 3)) 33554432) bs cb Hp2 Hbc).
  pose proof (cache_geom_fst rbc 262144 bs cb Hp1 Hbc).
  split; [|reflexivity]. apply info_of_rng. constructor; try assumption; lia.
Qed.

Print Assumptions C14_info_new_in_range.
