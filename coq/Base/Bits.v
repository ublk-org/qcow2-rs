(* Masks and shifts as division and remainder by powers of two.
   No division hook for [lia] is installed: with [Z.div_mod_to_equations] every [lia] of every importing file pays for
   each [/] and [mod] in sight.  A proof that needs a fact about [/] or [mod] names it (div_mul_le, mod_pow2_lt,
   pow2_div_mod_decomp, ...). *)
From Coq Require Import NArith Lia Bool.
Open Scope N_scope.

(* [cbn] and [simpl] leave binary arithmetic alone, here and in every file that imports this one *)
Arguments N.add : simpl never.
Arguments N.sub : simpl never.
Arguments N.mul : simpl never.
Arguments N.div : simpl never.
Arguments N.modulo : simpl never.
Arguments N.pow : simpl never.
Arguments N.shiftl : simpl never.
Arguments N.shiftr : simpl never.
Arguments N.land : simpl never.
Arguments N.lor : simpl never.

Lemma pow2_pos n : 0 < 2 ^ n.
Proof. apply N.neq_0_lt_0, N.pow_nonzero; discriminate. Qed.

Lemma pow2_nz n : 2 ^ n <> 0.
Proof. apply N.pow_nonzero; discriminate. Qed.

Lemma pow2_ge1 n : 1 <= 2 ^ n.
Proof. pose proof (pow2_pos n). lia. Qed.

Lemma pow2_split a b : 2 ^ (a + b) = 2 ^ a * 2 ^ b.
Proof. apply N.pow_add_r. Qed.

Lemma pow2_le_mono a b : a <= b -> 2 ^ a <= 2 ^ b.
Proof. intros; apply N.pow_le_mono_r; [discriminate|assumption]. Qed.

Lemma pow2_lt_mono a b : a < b -> 2 ^ a < 2 ^ b.
Proof. intros; apply N.pow_lt_mono_r; [reflexivity|assumption]. Qed.

Lemma pow2_div a b : b <= a -> 2 ^ a / 2 ^ b = 2 ^ (a - b).
Proof. intros. symmetry. apply N.pow_sub_r; [discriminate|assumption]. Qed.

Lemma pow2_mod_small a w : a < w -> 2 ^ a mod 2 ^ w = 2 ^ a.
Proof. intros. apply N.mod_small, pow2_lt_mono. assumption. Qed.

Lemma div_mul_le v d : d <> 0 -> v / d * d <= v.
Proof. intros. rewrite N.mul_comm. apply N.mul_div_le. assumption. Qed.

(* for [lia], which has no hook here and so does not even know the sign of a quotient *)
Lemma div_mul_range v d : d <> 0 -> 0 <= v / d * d <= v.
Proof. split; [apply N.le_0_l|apply div_mul_le; assumption]. Qed.

Lemma mod_pow2_lt v n : v mod 2 ^ n < 2 ^ n.
Proof. apply N.mod_lt, pow2_nz. Qed.

Lemma div_pow2_le v k : v / 2 ^ k <= v.
Proof.
  etransitivity; [|apply (div_mul_le v (2 ^ k)), pow2_nz].
  rewrite <- (N.mul_1_r (v / 2 ^ k)) at 1. apply N.mul_le_mono_l, pow2_ge1.
Qed.

Lemma pow2_div_mod_decomp v k : v = v / 2 ^ k * 2 ^ k + v mod 2 ^ k.
Proof. rewrite N.mul_comm. apply N.div_mod, pow2_nz. Qed.

Lemma div_div_pow2 v a b : v / 2 ^ a / 2 ^ b = v / 2 ^ (a + b).
Proof. rewrite N.div_div by apply pow2_nz. now rewrite N.pow_add_r. Qed.

(* an index split into a high part and b low bits *)
Lemma div_mod_pow2_compose v a b : v / 2 ^ (a + b) * 2 ^ b + (v / 2 ^ a) mod 2 ^ b = v / 2 ^ a.
Proof. rewrite <- div_div_pow2, N.mul_comm. symmetry. apply N.div_mod, pow2_nz. Qed.

Lemma div_pow2_lt v a b : v < 2 ^ (a + b) -> v / 2 ^ a < 2 ^ b.
Proof.
  intros. apply N.div_lt_upper_bound; [apply pow2_nz|]. rewrite <- N.pow_add_r. assumption.
Qed.

Lemma mul_pow2_lt x a b : x < 2 ^ a -> x * 2 ^ b < 2 ^ (a + b).
Proof. intros. rewrite N.pow_add_r. apply N.mul_lt_mono_pos_r; [apply pow2_pos|assumption]. Qed.

Lemma mul_pow2_eq0 x k : x * 2 ^ k = 0 <-> x = 0.
Proof. rewrite N.mul_eq_0. pose proof (pow2_nz k). tauto. Qed.

Lemma mul_pow2_mod x m n : n <= m -> (x * 2 ^ m) mod 2 ^ n = 0.
Proof.
  intros. replace m with (m - n + n) by lia. rewrite N.pow_add_r, N.mul_assoc. apply N.mod_mul, pow2_nz.
Qed.

(* slice number x / 2^s of an index below 2^e, scaled by the slice size 2^b: the slice ends inside 2^c *)
Lemma div_mul_pow2_fits x e s b c : s <= e -> e + b = c + s -> x < 2 ^ e -> x / 2 ^ s * 2 ^ b + 2 ^ b <= 2 ^ c.
Proof.
  intros Hs He Hx. replace c with (e - s + b) by lia.
  rewrite N.pow_add_r. rewrite <- (N.mul_1_l (2 ^ b)) at 2. rewrite <- N.mul_add_distr_r.
  apply N.mul_le_mono_r. rewrite N.add_1_r. apply N.le_succ_l, div_pow2_lt.
  replace (s + (e - s)) with e by lia. assumption.
Qed.

Lemma shiftl_1 n : N.shiftl 1 n = 2 ^ n.
Proof. rewrite N.shiftl_mul_pow2. apply N.mul_1_l. Qed.

Lemma shiftr_lt x a b : x < 2 ^ (a + b) -> N.shiftr x b < 2 ^ a.
Proof. intros. rewrite N.shiftr_div_pow2. apply div_pow2_lt. rewrite N.add_comm. assumption. Qed.

Lemma testbit_small x n i : x < 2 ^ n -> n <= i -> N.testbit x i = false.
Proof.
  intros Hx Hi. destruct (N.eq_dec x 0) as [->|Hn]; [apply N.bits_0|].
  apply N.bits_above_log2, (N.lt_le_trans _ n); [apply N.log2_lt_pow2; [lia|exact Hx]|exact Hi].
Qed.

(* one bit of a remainder, a multiple, a mask, a complement within n bits: equations without side conditions, so that
   a bitwise proof rewrites first and compares positions afterwards *)
Lemma testbit_mod_pow2 a n i : N.testbit (a mod 2 ^ n) i = (i <? n) && N.testbit a i.
Proof.
  destruct (N.ltb_spec i n); [apply N.mod_pow2_bits_low|apply N.mod_pow2_bits_high]; assumption.
Qed.

Lemma testbit_mul_pow2 a n i : N.testbit (a * 2 ^ n) i = (n <=? i) && N.testbit a (i - n).
Proof.
  destruct (N.leb_spec n i); [apply N.mul_pow2_bits_high|apply N.mul_pow2_bits_low]; assumption.
Qed.

Lemma testbit_pow2m1 n i : N.testbit (2 ^ n - 1) i = (i <? n).
Proof.
  rewrite <- N.pred_sub, <- N.ones_equiv.
  destruct (N.ltb_spec i n); [apply N.ones_spec_low|apply N.ones_spec_high]; assumption.
Qed.

Lemma testbit_compl m n i : m < 2 ^ n -> N.testbit (2 ^ n - 1 - m) i = (i <? n) && negb (N.testbit m i).
Proof.
  intros Hm. rewrite N.sub_nocarry_ldiff, N.ldiff_spec, testbit_pow2m1; [reflexivity|].
  apply N.bits_inj; intro j. rewrite N.ldiff_spec, testbit_pow2m1, N.bits_0.
  destruct (N.ltb_spec j n); [apply andb_false_r|]. rewrite (testbit_small m n) by assumption. reflexivity.
Qed.

Lemma mod_pow2_min a m n : (a mod 2 ^ m) mod 2 ^ n = a mod 2 ^ (N.min m n).
Proof.
  apply N.bits_inj; intro i. rewrite !testbit_mod_pow2.
  destruct (N.ltb_spec i n), (N.ltb_spec i m), (N.ltb_spec i (N.min m n)); (reflexivity || lia).
Qed.

Lemma mod_div_pow2 a m k : k <= m -> (a mod 2 ^ m) / 2 ^ k = (a / 2 ^ k) mod 2 ^ (m - k).
Proof.
  intros H. apply N.bits_inj; intro i. rewrite N.div_pow2_bits, !testbit_mod_pow2, N.div_pow2_bits.
  destruct (N.ltb_spec (i + k) m), (N.ltb_spec i (m - k)); (reflexivity || lia).
Qed.

Lemma lor_disjoint_add a b : N.land a b = 0 -> N.lor a b = a + b.
Proof.
  intros H. rewrite <- N.lxor_lor by assumption. symmetry. apply N.add_nocarry_lxor. assumption.
Qed.

Lemma land_low_high a b k : a < 2 ^ k -> N.land (b * 2 ^ k) a = 0.
Proof.
  intros H. apply N.bits_inj; intro i. rewrite N.land_spec, N.bits_0.
  destruct (N.lt_ge_cases i k).
  - rewrite N.mul_pow2_bits_low by assumption. reflexivity.
  - rewrite (testbit_small a k i) by assumption. apply andb_false_r.
Qed.

Lemma lor_low_high a b k : a < 2 ^ k -> N.lor a (b * 2 ^ k) = b * 2 ^ k + a.
Proof. intros. rewrite N.lor_comm. apply lor_disjoint_add, land_low_high. assumption. Qed.

Lemma lor_lt a b n : a < 2 ^ n -> b < 2 ^ n -> N.lor a b < 2 ^ n.
Proof.
  intros Ha Hb. rewrite <- (N.mod_small a _ Ha), <- (N.mod_small b _ Hb), <- !N.land_ones, <- N.land_lor_distr_l, N.land_ones.
  apply mod_pow2_lt.
Qed.

Lemma land_pow2m1 v n : N.land v (2 ^ n - 1) = v mod 2 ^ n.
Proof. rewrite <- N.pred_sub, <- N.ones_equiv. apply N.land_ones. Qed.

Lemma land_mask_lt x a : N.land x (2 ^ a - 1) < 2 ^ a.
Proof. rewrite land_pow2m1. apply mod_pow2_lt. Qed.

Lemma land_le x m : N.land x m <= x.
Proof.
  rewrite <- (N.lor_ldiff_and x m) at 2. rewrite lor_disjoint_add; [lia|].
  apply N.bits_inj; intro k. rewrite N.land_spec, N.ldiff_spec, N.land_spec, N.bits_0.
  destruct (N.testbit x k), (N.testbit m k); reflexivity.
Qed.

Lemma land_le_r x m : N.land x m <= m.
Proof. rewrite N.land_comm. apply land_le. Qed.

(* v & (2^hi - 2^lo): bits lo..hi-1 kept in place *)
Lemma land_range v lo hi : lo <= hi ->
  N.land v (2 ^ hi - 2 ^ lo) = ((v / 2 ^ lo) mod 2 ^ (hi - lo)) * 2 ^ lo.
Proof.
  intros H. replace (2 ^ hi - 2 ^ lo) with ((2 ^ (hi - lo) - 1) * 2 ^ lo)
    by (rewrite N.mul_sub_distr_r, <- N.pow_add_r, N.sub_add, N.mul_1_l by exact H; reflexivity).
  apply N.bits_inj; intro i.
  rewrite N.land_spec, !testbit_mul_pow2, testbit_pow2m1, testbit_mod_pow2, N.div_pow2_bits.
  destruct (N.leb_spec lo i); cbn [andb]; [|apply andb_false_r]. rewrite N.sub_add by assumption. apply andb_comm.
Qed.

(* round down to a multiple of 2^k inside a w-bit word *)
Lemma land_not_low v k w : k <= w -> v < 2 ^ w ->
  N.land v (2 ^ w - 1 - (2 ^ k - 1)) = v / 2 ^ k * 2 ^ k.
Proof.
  intros Hk Hv.
  replace (2 ^ w - 1 - (2 ^ k - 1)) with (2 ^ w - 2 ^ k)
    by (pose proof (pow2_pos k); pose proof (pow2_le_mono k w Hk); lia).
  rewrite land_range, N.mod_small; [reflexivity| |assumption].
  apply div_pow2_lt. replace (k + (w - k)) with w by lia. assumption.
Qed.

Lemma land_bit v k : N.land v (2 ^ k) = (if N.testbit v k then 2 ^ k else 0).
Proof.
  apply N.bits_inj; intro i. rewrite N.land_spec.
  destruct (N.eq_dec i k) as [->|Hne].
  - destruct (N.testbit v k) eqn:E; [now rewrite N.pow2_bits_true|now rewrite N.bits_0].
  - rewrite N.pow2_bits_false, andb_false_r by congruence.
    destruct (N.testbit v k); [rewrite N.pow2_bits_false by congruence; reflexivity|now rewrite N.bits_0].
Qed.

Lemma land_bit_ne0 v k : negb (N.land v (2 ^ k) =? 0) = N.testbit v k.
Proof.
  rewrite land_bit. destruct (N.testbit v k); [|reflexivity].
  apply negb_true_iff, N.eqb_neq, pow2_nz.
Qed.
