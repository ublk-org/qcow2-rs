(* The cell abstraction of an image (Model/Crash.v) defined on the executable specification (Spec/Image.v), and its
   meaning: for an image whose table entries sit at distinct file offsets, the abstract state is safe exactly when
   no cluster's stored refcount is below its number of references in the sense of the specification.
   `cells` is extracted (qdrv cells): the check compares the state its log decoder reaches at every sync point
   with this from-scratch abstraction of the durable image. *)
From Coq Require Import NArith List Bool Lia.
From Q.Spec Require Import Entries Image.
From Q.Model Require Import Crash.
Import ListNotations.
Open Scope N_scope.

Section A.
  Variable rd : N -> N.
  Variable h : hdr.
  Let cs := 2 ^ h_cb h.

  (* pseudo slot 1 (table entries sit at multiples of 8): what the header itself references *)
  Definition hdr_slot : N * list N :=
    (1, [0] ++ map (fun k => h_rt_off h / cs + k) (nrange (h_rt_clusters h))
            ++ map (fun k => h_l1_off h / cs + k) (nrange (l1_clusters h))).
  Definition rt_slots : list (N * list N) :=
    map (fun i => (h_rt_off h + i * 8, [s_rt_offset (rt_entry rd h i) / cs])) (rt_nonzero rd h).
  Definition l1_slots : list (N * list N) :=
    map (fun i => (h_l1_off h + i * 8, [s_l1_offset (l1_entry rd h i) / cs])) (l1_nonzero rd h).
  Definition l2_slots : list (N * list N) :=
    flat_map (fun i => map (fun j => (s_l1_offset (l1_entry rd h i) + j * 8,
                                      l2_refs h (l2_entry rd (s_l1_offset (l1_entry rd h i)) j))) (nrange (l2e h)))
             (l1_nonzero rd h).

  Definition slots : list (N * list N) := hdr_slot :: rt_slots ++ l1_slots ++ l2_slots.

  Definition cells : fs :=
    {| rcl := map (fun c => (c, stored rd h c)) (ref_list rd h); sll := slots |}.

  Definition cells_dom : list N := map fst slots.

  (* distinct slot identities: no two table entries at the same file offset *)
  Fixpoint nodupb (l : list N) : bool :=
    match l with
    | [] => true
    | x :: t => negb (existsb (N.eqb x) t) && nodupb t
    end.
End A.

From Q.Proofs Require Import SpecProps.

Lemma flat_map_snd_map_single {A} (f : A -> N) (g : A -> N) l :
  flat_map snd (map (fun i => (f i, [g i])) l) = map g l.
Proof. induction l as [|x l IH]; cbn [map flat_map snd app]; [reflexivity|]. rewrite IH. reflexivity. Qed.

Lemma flat_map_map {A B C} (f : B -> list C) (g : A -> B) l : flat_map f (map g l) = flat_map (fun x => f (g x)) l.
Proof. induction l as [|x l IH]; cbn [map flat_map]; [reflexivity|]. rewrite IH. reflexivity. Qed.

Lemma flat_map_snd_flat_map {A B} (k : A -> B -> N) (t : A -> B -> list N) (inner : list B) l :
  flat_map snd (flat_map (fun i => map (fun j => (k i j, t i j)) inner) l) =
  flat_map (fun i => flat_map (fun j => t i j) inner) l.
Proof.
  induction l as [|x l IH]; cbn [flat_map]; [reflexivity|]. rewrite flat_map_app, IH. f_equal.
  apply (flat_map_map snd).
Qed.

Lemma slots_refs rd h : flat_map snd (slots rd h) = ref_list rd h.
Proof.
  unfold slots, ref_list. cbn [flat_map]. unfold hdr_slot at 1. cbn [snd].
  rewrite !flat_map_app. unfold rt_slots, l1_slots, l2_slots.
  rewrite !flat_map_snd_map_single, flat_map_snd_flat_map.
  rewrite <- !app_assoc. reflexivity.
Qed.

Lemma occ_app c l1 l2 : occ c (l1 ++ l2) = occ c l1 + occ c l2.
Proof. induction l1 as [|x l IH]; cbn [app occ]; lia. Qed.

Lemma occ_count c l : occ c l = count c l.
Proof. reflexivity. Qed.

Lemma nodupb_spec l : nodupb l = true -> NoDup l.
Proof.
  induction l as [|x t IH]; cbn [nodupb]; intros H; [constructor|].
  apply andb_prop in H as [H1 H2]. constructor; [|exact (IH H2)].
  intros Hin. apply negb_true_iff in H1. assert (existsb (N.eqb x) t = true); [|congruence].
  apply existsb_exists. exists x. split; [exact Hin|apply N.eqb_refl].
Qed.

Lemma alookup_nodup {A} (d : A) l : NoDup (map fst l) -> forall p, In p l -> alookup d l (fst p) = snd p.
Proof.
  induction l as [|[k v] l IH]; intros ND p Hp; [contradiction|].
  apply NoDup_cons_iff in ND as [Hnin ND]. cbn [alookup]. destruct Hp as [<-|Hp].
  - cbn [fst snd]. rewrite N.eqb_refl. reflexivity.
  - destruct (N.eqb_spec (fst p) k) as [E|_]; [|exact (IH ND p Hp)].
    destruct Hnin. cbn [fst]. rewrite <- E. apply in_map, Hp.
Qed.

Lemma sumN_slots c (g : N -> list N) l : (forall p, In p l -> g (fst p) = snd p) ->
  sumN (fun i => occ c (g i)) (map fst l) = occ c (flat_map snd l).
Proof.
  induction l as [|p l IH]; intros H; cbn [map sumN flat_map occ]; [reflexivity|].
  rewrite occ_app, (H p (or_introl eq_refl)), IH; [reflexivity|]. intros q Hq. apply H. right. exact Hq.
Qed.

Theorem cells_refs rd h : nodupb (cells_dom rd h) = true ->
  forall c, crefs (cells_dom rd h) (cells rd h) c = refs rd h c.
Proof.
  intros ND c. unfold crefs, cells_dom.
  rewrite (sumN_slots c _ (slots rd h)) by exact (alookup_nodup [] _ (nodupb_spec _ ND)).
  rewrite slots_refs. apply occ_count.
Qed.

Lemma alookup_map_graph {A} (d : A) (f : N -> A) l c : In c l -> alookup d (map (fun x => (x, f x)) l) c = f c.
Proof.
  induction l as [|x l IH]; intros H; [contradiction|]. cbn [map alookup].
  destruct (N.eqb_spec c x) as [->|Hne]; [reflexivity|]. destruct H as [->|H]; [congruence|exact (IH H)].
Qed.

(* the refcount cell of a referenced cluster holds its stored refcount; other clusters have no references to cover *)
Lemma cells_rc rd h c : refs rd h c <= get_rc (cells rd h) c <-> refs rd h c <= stored rd h c.
Proof.
  destruct (in_dec N.eq_dec c (ref_list rd h)) as [Hin|Hnin].
  - unfold get_rc, cells. cbn [rcl]. rewrite (alookup_map_graph 0 (stored rd h)) by exact Hin. reflexivity.
  - unfold refs. rewrite count_notin by exact Hnin. lia.
Qed.

(* the meaning of `safe` on the abstraction of an image *)
Theorem cells_safe_iff rd h : nodupb (cells_dom rd h) = true ->
  (safe (cells_dom rd h) (cells rd h) <-> forall c, refs rd h c <= stored rd h c).
Proof.
  intros ND. split; intros H c; specialize (H c).
  - apply cells_rc. rewrite <- (cells_refs rd h ND). exact H.
  - rewrite (cells_refs rd h ND). apply cells_rc. exact H.
Qed.
