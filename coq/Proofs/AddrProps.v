(* C15, address arithmetic: the guest-offset and host-cluster index functions of the model
   partition the address space consistently with the specification's formulas. *)
From Coq Require Import NArith Lia.
From Q.Base Require Import Bits.
From Q.Spec Require Import Entries.
From Q.Model Require Import Codec.
From Q.Proofs Require Import Geometry.
Open Scope N_scope.

Section Addr.
  Variable i : info.
  Hypothesis R : info_rng i.
  Local Notation cb := (cluster_shift i).

  Lemma l2_entries_pow : s_l2_entries cb = 2 ^ l2_index_shift i.
  Proof. lin R. unfold s_l2_entries. change 8 with (2 ^ 3). rewrite pow2_div, (r_l2is i R) by lia. reflexivity. Qed.

  Theorem l1_index_spec g : sg_l1_index i g = s_l1_index cb g.
  Proof.
    unfold sg_l1_index, s_l1_index. rewrite l2_entries_pow, N.shiftr_div_pow2. symmetry. apply div_div_pow2.
  Qed.

  Theorem l2_index_spec g : sg_l2_index i g = s_l2_index cb g.
  Proof. unfold s_l2_index. rewrite l2_entries_pow. apply l2_index_mod, R. Qed.

  (* index composition reproduces the cluster number *)
  Theorem l1_l2_compose g :
    sg_l1_index i g * s_l2_entries cb + sg_l2_index i g = g / 2 ^ cb.
  Proof.
    unfold sg_l1_index. rewrite l2_entries_pow, (l2_index_mod i g R), N.shiftr_div_pow2. apply div_mod_pow2_compose.
  Qed.

  Theorem slice_compose g :
    sg_l2_slice_key i g * l2_slice_entries i + sg_l2_slice_index i g = g / 2 ^ cb.
  Proof.
    unfold sg_l2_slice_key, sg_l2_slice_index.
    rewrite !N.shiftr_div_pow2, (r_l2se i R), (r_l2sis i R), land_pow2m1. apply div_mod_pow2_compose.
  Qed.

  (* neither shift wraps: the inner sum is g / 2^cb by l1_l2_compose, the outer product is at most g *)
  Theorem cluster_offset_spec g : g < 2 ^ 64 -> sg_cluster_offset i g = g / 2 ^ cb * 2 ^ cb.
  Proof.
    intros Hg. pose proof (l1_l2_compose g) as C. rewrite l2_entries_pow, (r_l2is i R) in C.
    pose proof (div_pow2_le g cb). pose proof (div_mul_le g (2 ^ cb) (pow2_nz cb)).
    unfold sg_cluster_offset. rewrite (shl64_small (sg_l1_index i g)), C by lia. apply shl64_small. lia.
  Qed.

  Theorem cluster_plus_in_cluster g : g < 2 ^ 64 ->
    sg_cluster_offset i g + sg_in_cluster_offset i g = g.
  Proof.
    intros. rewrite cluster_offset_spec, (in_cluster_mod i g R) by assumption.
    symmetry. apply pow2_div_mod_decomp.
  Qed.

  Theorem slice_off_in_table_spec g :
    sg_l2_slice_off_in_table i g = sg_l2_index i g / l2_slice_entries i * 2 ^ l2_slice_bits i.
  Proof.
    lin R. unfold sg_l2_slice_off_in_table. rewrite (r_l2se i R), <- (r_l2sis i R).
    apply (slice_off_fits _ (l2_index_shift i) _ _ cb); [lia..|apply l2_index_lt, R].
  Qed.

  Theorem rt_rb_compose h :
    hc_rt_index i h * 2 ^ rb_index_shift i + hc_rb_index i h = h / 2 ^ cb.
  Proof.
    unfold hc_rt_index. rewrite (rb_index_mod i h R), N.shiftr_div_pow2, (N.add_comm (rb_index_shift i)).
    apply div_mod_pow2_compose.
  Qed.

  Theorem rb_entries_pow : rb_entries i = 2 ^ rb_index_shift i.
  Proof.
    lin R. unfold rb_entries.
    rewrite (cluster_size_pow i R), shl64_pow, N.shiftr_div_pow2, pow2_div, (r_rbis i R) by lia. reflexivity.
  Qed.

  Lemma s_rb_entries_pow : s_rb_entries cb (refcount_order i) = 2 ^ rb_index_shift i.
  Proof.
    lin R. unfold s_rb_entries. change 8 with (2 ^ 3). rewrite <- N.pow_add_r, pow2_div, (r_rbis i R) by lia. reflexivity.
  Qed.

  Theorem rb_entries_spec : rb_entries i = s_rb_entries cb (refcount_order i).
  Proof. rewrite rb_entries_pow. symmetry. apply s_rb_entries_pow. Qed.

  Theorem rt_index_spec h : hc_rt_index i h = s_rt_index cb (refcount_order i) h.
  Proof.
    unfold s_rt_index, hc_rt_index. rewrite s_rb_entries_pow, N.shiftr_div_pow2, N.add_comm. symmetry. apply div_div_pow2.
  Qed.

  Theorem rb_index_spec h : hc_rb_index i h = s_rb_index cb (refcount_order i) h.
  Proof. unfold s_rb_index. rewrite s_rb_entries_pow. apply rb_index_mod, R. Qed.

  Theorem rb_slice_compose h :
    hc_rb_slice_key i h * rb_slice_entries i + hc_rb_slice_index i h = h / 2 ^ cb.
  Proof.
    unfold hc_rb_slice_key, hc_rb_slice_index.
    rewrite (rbse_pow i R), !N.shiftr_div_pow2, land_pow2m1. apply div_mod_pow2_compose.
  Qed.

  Theorem rb_slice_host_start_spec h : h < 2 ^ 64 ->
    hc_rb_slice_host_start i h = hc_rb_slice_key i h * (rb_slice_entries i * 2 ^ cb).
  Proof.
    intros Hh. lin R. unfold hc_rb_slice_host_start, hc_rb_slice_key.
    rewrite shl64_1, land_not_low, N.shiftr_div_pow2, (rbse_pow i R), <- N.pow_add_r, (N.add_comm cb) by (assumption || lia).
    reflexivity.
  Qed.
End Addr.
