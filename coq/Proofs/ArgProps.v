(* What the argument-check prefixes of read_at / write_at / discard (Props/C13.v) need beside Proofs/GenEq.v: the three
   accessors they call, and their masks read as remainders and roundings. *)
From Coq Require Import NArith List Lia.
From Q.Base Require Import RExpr Bits.
From Q.Model Require Import Codec.
From Q.Gen Require Import GenCodec.
From Q.Proofs Require Import Geometry GenEq.
Import ListNotations.
Open Scope N_scope.

Lemma geq_virtual_size i : call g_Qcow2Info_virtual_size [v_info i] = Ret (VInt (virtual_size i)).
Proof. reflexivity. Qed.
#[export] Hint Rewrite geq_virtual_size : geq.

Lemma geq_is_back_file i : call g_Qcow2Info_is_back_file [v_info i] = Ret (VBool (is_back_file i)).
Proof. reflexivity. Qed.
#[export] Hint Rewrite geq_is_back_file : geq.

Lemma geq_is_read_only i : call g_Qcow2Info_is_read_only [v_info i] = Ret (VBool (is_read_only i)).
Proof. reflexivity. Qed.
#[export] Hint Rewrite geq_is_read_only : geq.

(* the masks of a size 2^k, as the contracts write them: [shl64 1 k] is 2^k, [x & (2^k - 1)] is [x mod 2^k],
   [x & !(2^k - 1)] is [x / 2^k * 2^k], and a multiple of 2^k has remainder 0 *)
Ltac masks k :=
  rewrite ?(shl64_1 k) by lia; repeat rewrite (land_not_low _ k 64) by lia;
  rewrite ?land_pow2m1, ?N.mod_mul by apply pow2_nz.
