From Coq Require Import NArith List Bool.
From Q.Model Require Import Flush.
Import ListNotations.
Open Scope N_scope.

Record FInv (s : fst_) : Prop := {
  i1 : forall k, unsynced s k = true -> dirty s k = true;
  i2 : forall k, dirty s k = true -> flag s = true
}.

Lemma finit_inv : FInv finit.
Proof. constructor; intros k H; discriminate. Qed.

Lemma fstep_inv s o : FInv s -> FInv (fstep s o).
Proof.
  intros [I1 I2]. constructor; intros x; specialize (I1 x); specialize (I2 x);
    destruct o as [k| |w|k|k]; cbn [fstep unsynced dirty flag]; unfold setb; auto.
  (* left: i1 for an update, a flush, a failed flush and an eviction; i2 for an eviction and a failed one *)
  - destruct (x =? k); auto.
  - (* a flush writes every dirty slice, and a slice that is not dirty did not differ *)
    destruct (dirty s x); auto.
  - destruct (existsb (N.eqb x) w), (dirty s x); auto.
  - (* eviction changes slice k only: it loses its mark, and is written if it had one, else it did not differ *)
    destruct (dirty s k) eqn:D; destruct (N.eqb_spec x k) as [->|]; auto.
    rewrite D in I1. exact I1.
  - destruct (x =? k); [discriminate|exact I2].
  - destruct (dirty s k); auto.
Qed.

Theorem frun_inv ops : forall s, FInv s -> FInv (frun s ops).
Proof.
  induction ops as [|o r IH]; intros s I; [exact I|]. cbn [frun fold_left]. apply IH. apply fstep_inv. exact I.
Qed.

Lemma frun_snoc s ops o : frun s (ops ++ [o]) = fstep (frun s ops) o.
Proof. apply fold_left_app. Qed.

(* in every reachable state a slice that differs from the file carries both marks; so it does after a failed flush
   (C17): what the flush did not write is still dirty and the flag is set, and the retry writes it *)
Lemma unsynced_marked ops k :
  unsynced (frun finit ops) k = true -> dirty (frun finit ops) k = true /\ flag (frun finit ops) = true.
Proof. intros U. destruct (frun_inv ops finit finit_inv) as [I1 I2]. split; [exact (I1 k U)|exact (I2 k (I1 k U))]. Qed.

(* C18, sequential form: when the flag is false, no cached slice differs from the file *)
Theorem flag_false_clean ops k :
  flag (frun finit ops) = false -> unsynced (frun finit ops) k = false.
Proof. intros F. apply not_true_is_false. intros U. apply unsynced_marked in U as [_ U]. congruence. Qed.

(* The boolean model is a sound abstraction of the content-carrying one (Model/Flush.v: cst), operation by operation. *)
Definition cabs (o : cop) : fop :=
  match o with
  | CUpdate k _ => FUpdate k | CFlushOk => FFlushOk | CFlushFail w => FFlushFail w
  | CEvictOk k => FEvictOk k | CEvictFail k => FEvictFail k
  end.

Record Sim (c : cst) (a : fst_) : Prop := {
  s_un : forall k, mem c k <> file c k -> unsynced a k = true;
  s_di : forall k, dirty a k = cdirty c k;
  s_fl : flag a = cflag c
}.

Lemma sim_init f : Sim (cinit f) finit.
Proof. constructor; cbn; intros; [exfalso; auto|reflexivity..]. Qed.

Lemma sim_step c a o : Sim c a -> Sim (cstep c o) (fstep a (cabs o)).
Proof.
  intros [U D F]. constructor.
  - (* `unsynced` is cleared only where the step copies mem to the file *)
    intros x. specialize (U x).
    destruct o as [k v| |w|k|k]; cbn [cabs cstep fstep mem file unsynced]; unfold setb, setn; rewrite ?D.
    + destruct (x =? k); auto.
    + destruct (cdirty c x); [congruence|exact U].
    + destruct (cdirty c x && existsb (N.eqb x) w); [congruence|exact U].
    + destruct (cdirty c k); [|exact U]. destruct (N.eqb_spec x k) as [->|]; [congruence|exact U].
    + exact U.
  - intros x. destruct o; cbn [cabs cstep fstep cdirty dirty]; unfold setb; rewrite ?D; reflexivity.
  - destruct o; cbn [cabs cstep fstep cflag flag]; rewrite ?D, ?F; reflexivity.
Qed.

Theorem sim_run ops : forall c a, Sim c a -> Sim (crun_ c ops) (frun a (map cabs ops)).
Proof.
  induction ops as [|o r IH]; intros c a S; [exact S|]. cbn [crun_ frun fold_left map]. apply IH. apply sim_step. exact S.
Qed.

(* so every statement about `unsynced` of the boolean model is a statement about file <> running view *)
Lemma sim_clean c a : Sim c a -> forall k, unsynced a k = false -> file c k = mem c k.
Proof.
  intros [U _ _] k H. destruct (N.eq_dec (mem c k) (file c k)) as [E|NE]; [symmetry; exact E|].
  rewrite (U k NE) in H. discriminate.
Qed.

Lemma cflag_false_file_is_mem f ops k :
  cflag (crun_ (cinit f) ops) = false -> file (crun_ (cinit f) ops) k = mem (crun_ (cinit f) ops) k.
Proof.
  intros F. pose proof (sim_run ops _ _ (sim_init f)) as S.
  apply (sim_clean _ _ S), flag_false_clean. rewrite (s_fl _ _ S). exact F.
Qed.

(* what the running device reads is the flat reference: only updates change it (flushes and evictions, failed or
   not, never do) *)
Lemma cstep_mem s o : mem (cstep s o) = match o with CUpdate k v => setn (mem s) k v | _ => mem s end.
Proof. destruct o; reflexivity. Qed.

Theorem crun_mem ops : forall s, mem (crun_ s ops) = cref (mem s) ops.
Proof.
  induction ops as [|o r IH]; intros s; [reflexivity|].
  transitivity (cref (mem (cstep s o)) r); [apply IH|]. rewrite cstep_mem. destruct o; reflexivity.
Qed.

Lemma crun_snoc s ops o : crun_ s (ops ++ [o]) = cstep (crun_ s ops) o.
Proof. apply fold_left_app. Qed.

(* whenever the flag is false the file alone determines the content (C18 in content form): for every slice it holds
   what the running device reads, which is the flat reference of the whole history *)
Theorem cflag_false_file_is_reference f ops k :
  cflag (crun_ (cinit f) ops) = false -> file (crun_ (cinit f) ops) k = cref f ops k.
Proof. intros F. rewrite (cflag_false_file_is_mem f ops k F), crun_mem. reflexivity. Qed.

(* C17: whatever a step does (failed or not), the file holds for every slice either what it held before or what the
   running device reads - a failed flush or eviction never puts anything else there, and never touches `mem` *)
Theorem cstep_file_old_or_current s o k :
  file (cstep s o) k = file s k \/ file (cstep s o) k = mem (cstep s o) k.
Proof.
  destruct o as [k0 v| |w|k0|k0]; cbn [cstep file mem]; auto.
  - destruct (cdirty s k); auto.
  - destruct (cdirty s k && existsb (N.eqb k) w); auto.
  - destruct (cdirty s k0); auto. unfold setn. destruct (N.eqb_spec k k0) as [->|]; auto.
Qed.
