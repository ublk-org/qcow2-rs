(* A log accepted by the discipline check has only safe crash states: for every prefix of the log and every subset
   of the writes pending at that point.  (Model/Crash.v) *)
From Coq Require Import NArith List Bool Lia.
From Q.Model Require Import Crash.
Import ListNotations.
Open Scope N_scope.

Lemma sumN_le {A} (f g : A -> N) l : (forall x, f x <= g x) -> sumN f l <= sumN g l.
Proof. intros H. induction l as [|x t IH]; cbn [sumN]; [lia|]. specialize (H x). lia. Qed.

Lemma sumN_ext {A} (f g : A -> N) l : (forall x, f x = g x) -> sumN f l = sumN g l.
Proof. intros H. induction l as [|x t IH]; cbn [sumN]; [reflexivity|]. rewrite (H x), IH. reflexivity. Qed.

Lemma occ_notin h t : ~ In h t -> occ h t = 0.
Proof.
  induction t as [|x t IH]; cbn [occ]; [reflexivity|]. intros [Hx Ht]%not_in_cons.
  rewrite (IH Ht). destruct (N.eqb_spec x h); [congruence|reflexivity].
Qed.

Lemma get_rc_apply1 s e h : get_rc (apply1 s e) h = match e with SetRc h' v => if N.eqb h' h then v else get_rc s h | _ => get_rc s h end.
Proof. destruct e as [h' v|i t|]; try reflexivity. rewrite (N.eqb_sym h' h). reflexivity. Qed.

Lemma get_sl_apply1 s e i : get_sl (apply1 s e) i = match e with SetSlot i' t => if N.eqb i' i then t else get_sl s i | _ => get_sl s i end.
Proof. destruct e as [h' v|i' t|]; try reflexivity. rewrite (N.eqb_sym i' i). reflexivity. Qed.

Lemma apply_all_masked P : forall s, apply_all s P = apply_masked s P (repeat true (length P)).
Proof. induction P as [|e P IH]; intros s; [reflexivity|]. apply IH. Qed.

(* a mask that is too short stands for the same mask filled up with false *)
Lemma apply_masked_cons s e P m :
  apply_masked s (e :: P) m = apply_masked (if hd false m then apply1 s e else s) P (tl m).
Proof. destruct m; [destruct P|]; reflexivity. Qed.

(* fmin h and fmax i h are the step functions of the folds rc_min and maxocc of Model/Crash.v: a refcount write can
   only lower the least value of its cell, a slot write can only raise the largest count of h the slot may hold *)
Definition fmin (h : N) := fun (m : N) (e : ev) => match e with SetRc h' v => if N.eqb h' h then N.min m v else m | _ => m end.
Definition fmax (i h : N) := fun (m : N) (e : ev) => match e with SetSlot i' t => if N.eqb i' i then N.max m (occ h t) else m | _ => m end.

Lemma rc_min_eq s P h : rc_min s P h = fold_left (fmin h) P (get_rc s h).
Proof. reflexivity. Qed.

Lemma maxocc_eq s P i h : maxocc s P i h = fold_left (fmax i h) P (occ h (get_sl s i)).
Proof. reflexivity. Qed.

Lemma rc_min_app s P Q h : rc_min s (P ++ Q) h = fold_left (fmin h) Q (rc_min s P h).
Proof. apply fold_left_app. Qed.

Lemma maxocc_app s P Q i h : maxocc s (P ++ Q) i h = fold_left (fmax i h) Q (maxocc s P i h).
Proof. apply fold_left_app. Qed.

Lemma fmin_le h a e : fmin h a e <= a.
Proof. destruct e as [h' v|i t|]; cbn [fmin]; try destruct (N.eqb h' h); lia. Qed.

Lemma fmax_ge i h a e : a <= fmax i h a e.
Proof. destruct e as [h' v|i' t|]; cbn [fmax]; try destruct (N.eqb i' i); lia. Qed.

Lemma fold_fmin_le h P : forall a, fold_left (fmin h) P a <= a.
Proof.
  induction P as [|e P IH]; intros a; cbn [fold_left]; [lia|].
  etransitivity; [apply IH|apply fmin_le].
Qed.

Lemma fold_fmax_ge i h P : forall a, a <= fold_left (fmax i h) P a.
Proof.
  induction P as [|e P IH]; intros a; cbn [fold_left]; [lia|].
  etransitivity; [apply fmax_ge|apply IH].
Qed.

Lemma fold_fmin_glb h b P : forall a, b <= a -> (forall v, In (SetRc h v) P -> b <= v) -> b <= fold_left (fmin h) P a.
Proof.
  induction P as [|e P IH]; intros a Ha H; [exact Ha|].
  apply IH; [|intros v Hv; apply H; right; exact Hv].
  destruct e as [h' v|i t|]; cbn [fmin]; try exact Ha. destruct (N.eqb_spec h' h) as [->|_]; [|exact Ha].
  pose proof (H v (or_introl eq_refl)). lia.
Qed.

(* one event, taken (b = true) or lost: a bound on the cell before gives the stepped bound after *)
Lemma fmin_step h s e (b : bool) a : a <= get_rc s h -> fmin h a e <= get_rc (if b then apply1 s e else s) h.
Proof.
  intros H. destruct b; [|etransitivity; [apply fmin_le|exact H]].
  rewrite get_rc_apply1. destruct e as [h' v|i t|]; cbn [fmin]; try exact H. destruct (N.eqb h' h); lia.
Qed.

Lemma fmax_step i h s e (b : bool) a : occ h (get_sl s i) <= a -> occ h (get_sl (if b then apply1 s e else s) i) <= fmax i h a e.
Proof.
  intros H. destruct b; [|etransitivity; [exact H|apply fmax_ge]].
  rewrite get_sl_apply1. destruct e as [h' v|i' t|]; cbn [fmax]; try exact H. destruct (N.eqb i' i); lia.
Qed.

Lemma masked_rc_ge h P : forall s m a, a <= get_rc s h -> fold_left (fmin h) P a <= get_rc (apply_masked s P m) h.
Proof.
  induction P as [|e P IH]; intros s m a H; [exact H|].
  rewrite apply_masked_cons. cbn [fold_left]. apply IH, fmin_step, H.
Qed.

Lemma masked_occ_le i h P : forall s m a, occ h (get_sl s i) <= a ->
  occ h (get_sl (apply_masked s P m) i) <= fold_left (fmax i h) P a.
Proof.
  induction P as [|e P IH]; intros s m a H; [exact H|].
  rewrite apply_masked_cons. cbn [fold_left]. apply IH, fmax_step, H.
Qed.

(* Both bounds are attained, and by one and the same crash state, because an event writes one cell: take a refcount
   write iff its value is below h's cell (to another cell it makes no difference), a slot write iff it raises the
   slot's count of h. *)
Lemma extreme_step h s e : exists b : bool, let s1 := if b then apply1 s e else s in
  get_rc s1 h = fmin h (get_rc s h) e /\ forall i, occ h (get_sl s1 i) = fmax i h (occ h (get_sl s i)) e.
Proof.
  destruct e as [h' v|i' t|]; cbn [fmin fmax].
  - exists (v <? get_rc s h). split; [|intros i; destruct (_ <? _); reflexivity].
    destruct (N.ltb_spec v (get_rc s h)); [rewrite get_rc_apply1|];
      (destruct (N.eqb_spec h' h) as [->|D]; [lia|reflexivity]).
  - exists (occ h (get_sl s i') <? occ h t). split; [destruct (_ <? _); reflexivity|]. intros i.
    destruct (N.ltb_spec (occ h (get_sl s i')) (occ h t)); [rewrite get_sl_apply1|];
      (destruct (N.eqb_spec i' i) as [->|D]; [lia|reflexivity]).
  - exists false. split; reflexivity.
Qed.

Lemma extremes_attained h P : forall s,
  exists m, length m = length P /\
    get_rc (apply_masked s P m) h = fold_left (fmin h) P (get_rc s h) /\
    forall i, occ h (get_sl (apply_masked s P m) i) = fold_left (fmax i h) P (occ h (get_sl s i)).
Proof.
  induction P as [|e P IH]; intros s; [exists []; repeat split|].
  destruct (extreme_step h s e) as [b [Hrc Hsl]]. destruct (IH (if b then apply1 s e else s)) as [m [L [Erc Esl]]].
  exists (b :: m). cbn [length apply_masked fold_left]. rewrite L, Erc, Hrc. repeat split.
  intros i. rewrite Esl, Hsl. reflexivity.
Qed.

Lemma sync_dec e : {e = Sync} + {e <> Sync}.
Proof. destruct e; (left; reflexivity) || (right; discriminate). Qed.

Lemma crun_cons s P e r : e <> Sync -> crun s P (e :: r) = crun s (P ++ [e]) r.
Proof. destruct e; [reflexivity|reflexivity|congruence]. Qed.

Section Dom.
  Variable dom : list N.

  Definition Inv (s : fs) (P : list ev) : Prop := forall h, refs_max dom s P h <= rc_min s P h.

  Lemma inv_nil s : Inv s [] <-> safe dom s.
  Proof. reflexivity. Qed.

  (* the check of h carries over from (s, P) to any (s', P') whose bounds for h lie inside those of (s, P) *)
  Lemma bounds_inside s P s' P' h : refs_max dom s P h <= rc_min s P h ->
    (forall i, maxocc s' P' i h <= maxocc s P i h) -> rc_min s P h <= rc_min s' P' h ->
    refs_max dom s' P' h <= rc_min s' P' h.
  Proof. intros I Hm Hr. etransitivity; [apply sumN_le, Hm|]. etransitivity; [exact I|exact Hr]. Qed.

  Theorem inv_crash_safe s P : Inv s P -> forall m, safe dom (apply_masked s P m).
  Proof.
    intros I m h. apply (bounds_inside s P (apply_masked s P m) [] h (I h)).
    - intros i. apply masked_occ_le, N.le_refl.
    - apply masked_rc_ge, N.le_refl.
  Qed.

  (* a completed sync: the bounds only get tighter *)
  Lemma inv_sync s P : Inv s P -> Inv (apply_all s P) [].
  Proof. intros I. rewrite apply_all_masked. apply inv_nil, inv_crash_safe, I. Qed.

  (* fewer pending writes, fewer crash states *)
  Lemma inv_prefix s P Q : Inv s (P ++ Q) -> Inv s P.
  Proof.
    intros I h. apply (bounds_inside s (P ++ Q) s P h (I h)).
    - intros i. rewrite maxocc_app. apply fold_fmax_ge.
    - rewrite rc_min_app. apply fold_fmin_le.
  Qed.

  Lemma inv_step s P e : e <> Sync -> Inv s P -> step_ok dom s P e = true -> Inv s (P ++ [e]).
  Proof.
    intros Hne I Hs h.
    (* h is among the clusters step_ok checks, or e leaves both bounds of h as they are *)
    assert (chk dom s (P ++ [e]) h = true \/ (forall a, fmin h a e = a) /\ forall i a, fmax i h a e = a) as [C|[E1 E2]].
    { destruct e as [h0 v|i0 t|]; [| |congruence]; cbn [step_ok fmin fmax] in *.
      - destruct (N.eqb_spec h0 h) as [->|D]; [left; exact Hs|right; split; reflexivity].
      - destruct (in_dec N.eq_dec h t) as [Hin|Hn]; [left; exact (proj1 (forallb_forall _ _) Hs h Hin)|right].
        split; [reflexivity|]. intros i a. rewrite (occ_notin h t Hn), N.max_0_r. destruct (N.eqb i0 i); reflexivity. }
    - apply N.leb_le, C.
    - apply (bounds_inside s P s (P ++ [e]) h (I h)).
      + intros i. rewrite maxocc_app. cbn [fold_left]. rewrite E2. apply N.le_refl.
      + rewrite rc_min_app. cbn [fold_left]. rewrite E1. apply N.le_refl.
  Qed.

  Lemma crefs_notin s h : ~ In h (targets dom s) -> crefs dom s h = 0.
  Proof.
    unfold targets, crefs. induction dom as [|i d IH]; cbn [sumN flat_map]; [reflexivity|].
    rewrite in_app_iff. intros Hn. rewrite occ_notin, IH by tauto. reflexivity.
  Qed.

  Lemma init_inv s : init_ok dom s = true -> Inv s [].
  Proof.
    intros H. apply inv_nil. intros h.
    destruct (in_dec N.eq_dec h (targets dom s)) as [Hin|Hnin].
    - apply N.leb_le. exact (proj1 (forallb_forall _ _) H h Hin).
    - rewrite crefs_notin by exact Hnin. lia.
  Qed.

  (* the invariant holds of (durable, pending) after every prefix of the log *)
  Definition InvRun (s : fs) (P : list ev) (evs : list ev) : Prop :=
    forall k, Inv (fst (crun s P (firstn k evs))) (snd (crun s P (firstn k evs))).

  Lemma invrun_nil s P : Inv s P -> InvRun s P [].
  Proof. intros I k. rewrite firstn_nil. exact I. Qed.

  Lemma invrun_sync s P evs : Inv s P -> InvRun (apply_all s P) [] evs -> InvRun s P (Sync :: evs).
  Proof. intros I H [|k]; [exact I|apply H]. Qed.

  Lemma invrun_cons s P e evs : e <> Sync -> Inv s P -> InvRun s (P ++ [e]) evs -> InvRun s P (e :: evs).
  Proof. intros Hne I H [|k]; [exact I|]. cbn [firstn]. rewrite crun_cons by exact Hne. apply H. Qed.

  Lemma disc_cons s P e r : e <> Sync -> disc dom s P (e :: r) = step_ok dom s P e && disc dom s (P ++ [e]) r.
  Proof. destruct e; [reflexivity|reflexivity|congruence]. Qed.

  Lemma disc_sound evs : forall s P, Inv s P -> disc dom s P evs = true -> InvRun s P evs.
  Proof.
    induction evs as [|e evs IH]; intros s P I D; [apply invrun_nil, I|].
    destruct (sync_dec e) as [->|Hne].
    - apply invrun_sync; [exact I|]. apply IH; [apply inv_sync, I|exact D].
    - rewrite disc_cons in D by exact Hne. apply andb_prop in D as [D1 D2].
      apply invrun_cons; [exact Hne|exact I|]. apply IH; [apply inv_step; assumption|exact D2].
  Qed.

  (* the statement used by C04: all crash states of all prefixes *)
  Theorem disciplined_all_crash_states_safe s evs :
    disciplined dom s evs = true ->
    forall k m, let st := crun s [] (firstn k evs) in safe dom (apply_masked (fst st) (snd st) m).
  Proof.
    intros H k m st. apply andb_prop in H as [H1 H2].
    apply inv_crash_safe, disc_sound; [apply init_inv, H1|exact H2].
  Qed.
End Dom.

(* the check accepts an ordered log and rejects mis-ordered ones (evaluated) *)
Example ordered_log_accepted :
  (* allocate cluster 7: refcount first, sync, then the L2 slot; free it in the opposite order *)
  disciplined [100; 101] {| rcl := [(5, 1)]; sll := [(100, [5])] |}
    [SetRc 7 1; Sync; SetSlot 101 [7]; Sync; SetSlot 101 []; Sync; SetRc 7 0] = true.
Proof. vm_compute. reflexivity. Qed.

Example unordered_log_rejected :
  (* the slot write is issued while the refcount increment is not durable yet *)
  disciplined [100; 101] {| rcl := [(5, 1)]; sll := [(100, [5])] |} [SetRc 7 1; SetSlot 101 [7]; Sync] = false.
Proof. vm_compute. reflexivity. Qed.

Example early_release_rejected :
  (* refcount dropped before the cleared slot is durable *)
  disciplined [100; 101] {| rcl := [(5, 1)]; sll := [(100, [5])] |} [SetSlot 100 []; SetRc 5 0; Sync] = false.
Proof. vm_compute. reflexivity. Qed.

Example rejected_log_has_unsafe_crash_state :
  let s := {| rcl := [(5, 1)]; sll := [(100, [5])] |} in
  ~ safe [100; 101] (apply_masked s [SetRc 7 1; SetSlot 101 [7]] [false; true]).
Proof. intros s H. specialize (H 7). vm_compute in H. apply H. reflexivity. Qed.

(* exactness at the level of cells: when the check rejects, some crash state of some prefix is unsafe
   (the bounds are attained simultaneously, because cells are written independently) *)
Section Exact.
  Variable dom : list N.

  Lemma chk_false_unsafe s P h : chk dom s P h = false -> exists m, ~ safe dom (apply_masked s P m).
  Proof.
    intros C. apply N.leb_gt, N.lt_nge in C. destruct (extremes_attained h P s) as [m [_ [Hrc Hsl]]].
    exists m. intros S. apply C. specialize (S h). unfold crefs in S.
    rewrite Hrc, (sumN_ext _ (fun i => maxocc s P i h)) in S by exact Hsl. exact S.
  Qed.

  Lemma forallb_false_ex {A} (f : A -> bool) l : forallb f l = false -> exists x, f x = false.
  Proof.
    induction l as [|x t IH]; cbn [forallb]; [discriminate|].
    destruct (f x) eqn:F; [exact IH|exists x; exact F].
  Qed.

  Lemma step_false_unsafe s P e : step_ok dom s P e = false -> exists m, ~ safe dom (apply_masked s (P ++ [e]) m).
  Proof.
    intros St. assert (exists h, chk dom s (P ++ [e]) h = false) as [h C]; [|exact (chk_false_unsafe _ _ _ C)].
    destruct e as [h v|i t|]; cbn [step_ok] in St; [exists h; exact St| |discriminate].
    exact (forallb_false_ex _ _ St).
  Qed.

  Lemma disc_false_unsafe evs : forall s P, disc dom s P evs = false ->
    exists k m, ~ safe dom (apply_masked (fst (crun s P (firstn k evs))) (snd (crun s P (firstn k evs))) m).
  Proof.
    induction evs as [|e evs IH]; intros s P D; [discriminate|].
    destruct (sync_dec e) as [->|Hne].
    - destruct (IH _ _ D) as [k U]. exists (S k). exact U.
    - rewrite disc_cons in D by exact Hne. apply andb_false_iff in D as [D|D].
      + destruct (step_false_unsafe _ _ _ D) as [m U]. exists 1%nat, m. cbn [firstn]. rewrite crun_cons by exact Hne. exact U.
      + destruct (IH _ _ D) as [k U]. exists (S k). cbn [firstn]. rewrite crun_cons by exact Hne. exact U.
  Qed.

  (* the check is exact for the cell model: it rejects only logs that have an unsafe crash state *)
  Theorem disciplined_false_unsafe s evs : disciplined dom s evs = false ->
    exists k m, ~ safe dom (apply_masked (fst (crun s [] (firstn k evs))) (snd (crun s [] (firstn k evs))) m).
  Proof.
    intros H. apply andb_false_iff in H as [I|D]; [|exact (disc_false_unsafe evs s [] D)].
    destruct (forallb_false_ex _ _ I) as [h C]. apply N.leb_gt, N.lt_nge in C.
    exists 0%nat, []. intros S. exact (C (S h)).
  Qed.
End Exact.

(* the ordered flush protocol, for every batch:
     1. refcount writes that do not lower any refcount (allocations)      2. sync
     3. the slot writes (new mappings, cleared mappings, table links)       4. sync
     5. refcount writes that stay above the references now on disk (releases)
   has only safe crash states, whatever the batch, provided the refcounts after step 1 cover every mixture of old
   and new slot contents. *)
Section Protocol.
  Variable dom : list N.

  Definition rc_evs (l : list (N * N)) : list ev := map (fun p => SetRc (fst p) (snd p)) l.
  Definition sl_evs (l : list (N * list N)) : list ev := map (fun p => SetSlot (fst p) (snd p)) l.

  Definition protocol (incs : list (N * N)) (sets : list (N * list N)) (decs : list (N * N)) : list ev :=
    rc_evs incs ++ [Sync] ++ sl_evs sets ++ [Sync] ++ rc_evs decs.

  (* a phase without a sync: the invariant for all its writes pending gives it after each of them (inv_prefix) *)
  Lemma invrun_app_nosync A : Forall (fun e => e <> Sync) A ->
    forall s P evs, InvRun dom s (P ++ A) evs -> InvRun dom s P (A ++ evs).
  Proof.
    induction 1 as [|e A Hne _ IH]; intros s P evs H; [rewrite app_nil_r in H; exact H|].
    apply invrun_cons; [exact Hne|exact (inv_prefix dom s P (e :: A) (H 0%nat))|].
    apply IH. rewrite <- app_assoc. exact H.
  Qed.

  Lemma rc_evs_no_sync l : Forall (fun e => e <> Sync) (rc_evs l).
  Proof. apply Forall_map, Forall_forall. discriminate. Qed.

  Lemma sl_evs_no_sync l : Forall (fun e => e <> Sync) (sl_evs l).
  Proof. apply Forall_map, Forall_forall. discriminate. Qed.

  (* slot bounds are not touched by refcount writes, refcount bounds not by slot writes *)
  Lemma fold_fmax_rc_evs i h l : forall a, fold_left (fmax i h) (rc_evs l) a = a.
  Proof. induction l as [|p l IH]; intros a; [reflexivity|]. apply IH. Qed.

  Lemma fold_fmin_sl_evs h l : forall a, fold_left (fmin h) (sl_evs l) a = a.
  Proof. induction l as [|p l IH]; intros a; [reflexivity|]. apply IH. Qed.

  (* phase 1 / phase 5: refcount writes over a state that satisfies the invariant *)
  Lemma inv_rc_evs s l : Inv dom s [] -> (forall p, In p l -> crefs dom s (fst p) <= snd p) -> Inv dom s (rc_evs l).
  Proof.
    intros I H h. unfold refs_max.
    rewrite (sumN_ext _ (fun i => occ h (get_sl s i))) by (intros i; rewrite maxocc_eq; apply fold_fmax_rc_evs).
    rewrite rc_min_eq. apply fold_fmin_glb; [exact (I h)|]. intros v Hv. apply in_map_iff in Hv as [p [E Hp]].
    injection E as <- <-. exact (H p Hp).
  Qed.

  (* phase 3: slot writes, when the refcounts cover every mixture of old and new contents *)
  Lemma inv_sl_evs s l : (forall h, refs_max dom s (sl_evs l) h <= get_rc s h) -> Inv dom s (sl_evs l).
  Proof. intros H h. rewrite rc_min_eq, fold_fmin_sl_evs. exact (H h). Qed.

  Theorem protocol_every_crash_state_safe s incs sets decs :
    Inv dom s [] ->
    (* 1: allocations only raise refcounts (stated against the references on disk) *)
    (forall p, In p incs -> crefs dom s (fst p) <= snd p) ->
    (* 3: after them, the refcounts cover any mixture of old and new slot contents *)
    (forall h, refs_max dom (apply_all s (rc_evs incs)) (sl_evs sets) h <= get_rc (apply_all s (rc_evs incs)) h) ->
    (* 5: releases stay above the references that are on disk after step 4 *)
    (forall p, In p decs -> crefs dom (apply_all (apply_all s (rc_evs incs)) (sl_evs sets)) (fst p) <= snd p) ->
    forall k m, let st := crun s [] (firstn k (protocol incs sets decs)) in
    safe dom (apply_masked (fst st) (snd st) m).
  Proof.
    intros I H1 H3 H5. assert (R : InvRun dom s [] (protocol incs sets decs)); [|intros k m st; apply inv_crash_safe, R].
    pose proof (inv_sl_evs _ sets H3) as I3.
    apply invrun_app_nosync; [apply rc_evs_no_sync|]. apply invrun_sync; [exact (inv_rc_evs s incs I H1)|].
    apply invrun_app_nosync; [apply sl_evs_no_sync|]. apply invrun_sync; [exact I3|].
    rewrite <- (app_nil_r (rc_evs decs)). apply invrun_app_nosync; [apply rc_evs_no_sync|].
    apply invrun_nil, inv_rc_evs; [apply inv_sync, I3|exact H5].
  Qed.
End Protocol.

Example protocol_instance :
  (* cluster 7 is allocated and mapped at slot 101 while the mapping of cluster 5 at slot 100 is dropped *)
  let s := {| rcl := [(5, 1)]; sll := [(100, [5])] |} in
  disciplined [100; 101] s (protocol [(7, 1)] [(101, [7]); (100, [])] [(5, 0)]) = true.
Proof. vm_compute. reflexivity. Qed.

(* frame: a cell that no later event writes keeps its value in every later crash state (C05 at the level of
   cells: a synced mapping / refcount survives whatever else is in flight) *)
Definition writes_slot (i : N) (e : ev) : bool := match e with SetSlot i' _ => N.eqb i' i | _ => false end.
Definition writes_rc (h : N) (e : ev) : bool := match e with SetRc h' _ => N.eqb h' h | _ => false end.

Lemma slot_frame1 i s e : writes_slot i e = false -> get_sl (apply1 s e) i = get_sl s i.
Proof. rewrite get_sl_apply1. destruct e; cbn [writes_slot]; try reflexivity. intros ->. reflexivity. Qed.

Lemma rc_frame1 h s e : writes_rc h e = false -> get_rc (apply1 s e) h = get_rc s h.
Proof. rewrite get_rc_apply1. destruct e; cbn [writes_rc]; try reflexivity. intros ->. reflexivity. Qed.

(* an observation [obs] of the file that only the events marked by [w] can change *)
Section Frame.
  Context {A : Type} (obs : fs -> A) (w : ev -> bool).
  Hypothesis W : forall s e, w e = false -> obs (apply1 s e) = obs s.

  Lemma masked_frame P : forall s m, forallb (fun e => negb (w e)) P = true -> obs (apply_masked s P m) = obs s.
  Proof.
    induction P as [|e P IH]; intros s m H; [reflexivity|].
    cbn [forallb] in H. apply andb_prop in H as [He HP]. apply negb_true_iff in He.
    rewrite apply_masked_cons, IH by exact HP. destruct (hd false m); [exact (W s e He)|reflexivity].
  Qed.

  (* across syncs: in every crash state of every prefix of a log without marked events *)
  Lemma crun_frame evs : forall s P k m,
    forallb (fun e => negb (w e)) P = true -> forallb (fun e => negb (w e)) evs = true ->
    obs (apply_masked (fst (crun s P (firstn k evs))) (snd (crun s P (firstn k evs))) m) = obs s.
  Proof.
    induction evs as [|e evs IH]; intros s P k m HP H; [rewrite firstn_nil; apply masked_frame, HP|].
    destruct k as [|k]; [apply masked_frame, HP|]. cbn [firstn].
    cbn [forallb] in H. apply andb_prop in H as [He Hr]. destruct (sync_dec e) as [->|Hne].
    - cbn [crun]. rewrite IH, apply_all_masked by (reflexivity || exact Hr). apply masked_frame, HP.
    - rewrite crun_cons by exact Hne. apply IH; [|exact Hr]. rewrite forallb_app, HP. cbn [forallb]. rewrite He. reflexivity.
  Qed.
End Frame.

Lemma masked_rc_frame h P : forall s m, forallb (fun e => negb (writes_rc h e)) P = true ->
  get_rc (apply_masked s P m) h = get_rc s h.
Proof. exact (masked_frame (fun s => get_rc s h) (writes_rc h) (rc_frame1 h) P). Qed.

Lemma forallb_app_inv {A} (f : A -> bool) l1 l2 : forallb f (l1 ++ l2) = true -> forallb f l1 = true /\ forallb f l2 = true.
Proof. rewrite forallb_app. apply andb_prop. Qed.

Theorem synced_slot_survives i s evs :
  forallb (fun e => negb (writes_slot i e)) evs = true ->
  forall k m, let st := crun s [] (firstn k evs) in
  get_sl (apply_masked (fst st) (snd st) m) i = get_sl s i.
Proof. intros H k m st. exact (crun_frame (fun s => get_sl s i) (writes_slot i) (slot_frame1 i) evs s [] k m eq_refl H). Qed.
