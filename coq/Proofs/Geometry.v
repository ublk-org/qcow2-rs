(* What the proofs of the pure layer share: the ranges of the [info] record and their view for [lia], the values of the
   derived quantities, the precondition of from_mapping, refcount slices as byte lists. *)
From Coq Require Import NArith List Lia.
From Q.Base Require Import Bits.
From Q.Model Require Import Codec.
Open Scope N_scope.

(* ranges of the u8/u32 fields of Qcow2Info that keep the evaluator's checks quiet *)
Record info_rng (i : info) : Prop := {
  r_cs : 9 <= cluster_shift i <= 21;
  r_ro : refcount_order i <= 6;
  r_bs : 9 <= block_size_shift i <= 12;
  r_l2sb : 9 <= l2_slice_bits i <= cluster_shift i;
  r_rbsb : 9 <= rb_slice_bits i <= cluster_shift i;
  r_l2is : l2_index_shift i = cluster_shift i - 3;
  r_l2sis : l2_slice_index_shift i = l2_slice_bits i - 3;
  r_rbis : rb_index_shift i = cluster_shift i + 3 - refcount_order i;
  r_rbsis : rb_slice_index_shift i = rb_slice_bits i + 3 - refcount_order i;
  r_l2se : l2_slice_entries i = 2 ^ (l2_slice_bits i - 3);
  r_mask : in_cluster_offset_mask i = 2 ^ cluster_shift i - 1;
  r_l2mask : l2_index_mask i = 2 ^ (cluster_shift i - 3) - 1;
  r_rbmask : rb_index_mask i = 2 ^ (cluster_shift i + 3 - refcount_order i) - 1;
  r_vs : virtual_size i < 2 ^ 64;
}.

(* [lia] is never shown [info_rng] itself: each of its truncated subtractions is a case split.  The shift amounts
   enter the context in this subtraction-free form; the equations for masks and entry counts are used by
   [rewrite (r_mask i R)] and the like. *)
Lemma rng_lin i : info_rng i ->
  9 <= cluster_shift i <= 21 /\ refcount_order i <= 6 /\ 9 <= block_size_shift i <= 12 /\
  9 <= l2_slice_bits i <= cluster_shift i /\ 9 <= rb_slice_bits i <= cluster_shift i /\
  l2_index_shift i + 3 = cluster_shift i /\ l2_slice_index_shift i + 3 = l2_slice_bits i /\
  rb_index_shift i + refcount_order i = cluster_shift i + 3 /\
  rb_slice_index_shift i + refcount_order i = rb_slice_bits i + 3.
Proof. intros [? ? ? ? ? -> -> -> -> _ _ _ _ _]. lia. Qed.

Ltac lin R := let H := fresh in pose proof (rng_lin _ R) as H; decompose [and] H; clear H.

Lemma shl64_small x k : x * 2 ^ k < 2 ^ 64 -> shl64 x k = x * 2 ^ k.
Proof. intros. unfold shl64. rewrite N.shiftl_mul_pow2. apply N.mod_small. assumption. Qed.

Lemma shl64_pow a b : a + b < 64 -> shl64 (2 ^ a) b = 2 ^ (a + b).
Proof. intros. rewrite shl64_small; rewrite <- N.pow_add_r; [reflexivity|apply pow2_lt_mono; assumption]. Qed.

Lemma shl64_1 k : k < 64 -> shl64 1 k = 2 ^ k.
Proof. apply (shl64_pow 0). Qed.

(* slice number idx / 2^s of a table of 2^cs bytes indexed below 2^e, slices of 2^sb bytes: the shift that gives the
   slice's offset does not wrap, and the slice ends inside the table *)
Lemma slice_off_fits idx e s sb cs : s <= e -> e + sb = cs + s -> cs < 64 -> idx < 2 ^ e ->
  shl64 (N.shiftr idx s) sb = idx / 2 ^ s * 2 ^ sb /\ shl64 (N.shiftr idx s) sb + 2 ^ sb <= 2 ^ cs.
Proof.
  intros Hs He Hc Hi. pose proof (div_mul_pow2_fits idx e s sb cs Hs He Hi) as F.
  rewrite N.shiftr_div_pow2, shl64_small; [split; [reflexivity|exact F]|].
  pose proof (pow2_lt_mono cs 64 Hc). lia.
Qed.

Lemma cluster_size_pow i : info_rng i -> cluster_size i = 2 ^ cluster_shift i.
Proof. intros R. lin R. apply shl64_1. lia. Qed.

Lemma rbse_pow i : info_rng i -> rb_slice_entries i = 2 ^ rb_slice_index_shift i.
Proof.
  intros R. lin R. unfold rb_slice_entries, shl32.
  rewrite shiftl_1, pow2_mod_small, N.shiftr_div_pow2, pow2_div, (r_rbsis i R) by lia. reflexivity.
Qed.

Lemma in_cluster_mod i g : info_rng i -> sg_in_cluster_offset i g = g mod 2 ^ cluster_shift i.
Proof. intros R. unfold sg_in_cluster_offset. rewrite (r_mask i R). apply land_pow2m1. Qed.

Lemma l2_index_mod i g : info_rng i -> sg_l2_index i g = (g / 2 ^ cluster_shift i) mod 2 ^ l2_index_shift i.
Proof. intros R. unfold sg_l2_index. rewrite (r_l2mask i R), (r_l2is i R), N.shiftr_div_pow2. apply land_pow2m1. Qed.

Lemma rb_index_mod i h : info_rng i -> hc_rb_index i h = (h / 2 ^ cluster_shift i) mod 2 ^ rb_index_shift i.
Proof. intros R. unfold hc_rb_index. rewrite (r_rbmask i R), (r_rbis i R), N.shiftr_div_pow2. apply land_pow2m1. Qed.

Lemma l2_index_lt i g : info_rng i -> sg_l2_index i g < 2 ^ l2_index_shift i.
Proof. intros R. rewrite (l2_index_mod i g R). apply mod_pow2_lt. Qed.

Lemma rb_index_lt i h : info_rng i -> hc_rb_index i h < 2 ^ rb_index_shift i.
Proof. intros R. rewrite (rb_index_mod i h R). apply mod_pow2_lt. Qed.

(* the geometry the device accepts *)
Record geom_ok (cb ro bs l2sb rbsb size : N) : Prop := {
  g_cb : 9 <= cb <= 21;
  g_ro : ro <= 6;
  g_bs : 9 <= bs <= 12;
  g_l2sb : bs <= l2sb <= cb;
  g_rbsb : bs <= rbsb <= cb;
  g_size : size < 2 ^ 64;
}.

Lemma info_of_rng cb ro size bs l2sb l2cnt rbsb rbcnt fl :
  geom_ok cb ro bs l2sb rbsb size -> info_rng (info_of cb ro size bs l2sb l2cnt rbsb rbcnt fl).
Proof.
  intros []. constructor; cbn; try lia; change 8 with (2 ^ 3).
  - rewrite N.shiftr_div_pow2, !pow2_div by lia. f_equal. lia.
  - rewrite pow2_div by lia. reflexivity.
  - rewrite <- N.pow_add_r, pow2_div by lia. reflexivity.
Qed.

(* the mappings on which L2Entry::from_mapping does not panic *)
Definition from_mapping_pre (cb : N) (m : mapping) : Prop :=
  match m_offset m with Some o => o <= 72057594037927935 | None => True end /\
  l2_reserved_bits (l2_from_mapping cb m) = 0 /\
  ((m_source m = SRC_DATA /\ m_clen m = None /\ m_offset m <> None) \/
   (m_source m = SRC_BACKING /\ m_clen m = None /\ m_copied m = false) \/
   (m_source m = SRC_ZERO /\ m_clen m = None /\ (m_copied m = true -> m_offset m <> None)) \/
   (m_source m = SRC_COMPRESSED /\ m_copied m = false /\
      exists o len, m_offset m = Some o /\ m_clen m = Some len /\ 1 <= len <= 2 ^ 23 /\
        (len - 1 + N.land o 511) / 512 < 2 ^ (cb - 8)) \/
   m_source m = SRC_UNALLOC).

Definition bytes_ok (l : list N) : Prop := Forall (fun b => b < 256) l.

Lemma upd_length l i v : length (upd l i v) = length l.
Proof. unfold upd. generalize (N.to_nat i) as n. induction l as [|a l IH]; intros [|n]; cbn; auto. Qed.

Lemma byte_at_lt l i : bytes_ok l -> byte_at l i < 256.
Proof.
  intros H. unfold byte_at. destruct (nth_in_or_default (N.to_nat i) l 0) as [Hin| ->]; [|reflexivity].
  exact (proj1 (Forall_forall _ l) H _ Hin).
Qed.

Definition rb_in_range (ro len idx : N) : Prop :=
  match ro with
  | 0 => idx / 8 < len | 1 => idx / 4 < len | 2 => idx / 2 < len | 3 => idx < len
  | 4 => idx * 2 + 2 <= len | 5 => idx * 4 + 4 <= len | _ => idx * 8 + 8 <= len
  end.

Lemma ro_cases ro : ro <= 6 -> ro = 0 \/ ro = 1 \/ ro = 2 \/ ro = 3 \/ ro = 4 \/ ro = 5 \/ ro = 6.
Proof. lia. Qed.
