(* C15, refcount blocks: get/set of every width touches only the addressed entry, uses
   big-endian words / LSB-first sub-byte packing, refuses values that do not fit. *)
From Coq Require Import NArith List Bool Lia.
From Q.Base Require Import Bits.
From Q.Spec Require Import Entries.
From Q.Model Require Import Codec.
From Q.Proofs Require Import Geometry.
Open Scope N_scope.

(* fields of w bits in a byte, entries of n bytes in a block: consecutive ones do not overlap *)
Lemma mul_succ_le a b m : a < b -> a * m + m <= b * m.
Proof.
  intros H. rewrite <- (N.mul_1_l m) at 2. rewrite <- N.mul_add_distr_r. apply N.mul_le_mono_r. lia.
Qed.

Lemma byte_at_upd_same l i v : i < N.of_nat (length l) -> byte_at (upd l i v) i = v.
Proof.
  unfold byte_at, upd. intros H. assert (N.to_nat i < length l)%nat as H' by lia. revert H'.
  generalize (N.to_nat i) as n. clear H.
  induction l as [|a l IH]; intros [|n] H; cbn in *; try lia; auto. apply IH. lia.
Qed.

Lemma byte_at_upd_other l i j v : i <> j -> byte_at (upd l i v) j = byte_at l j.
Proof.
  unfold byte_at, upd. intros H. assert (N.to_nat i <> N.to_nat j) as H' by lia. revert H'.
  generalize (N.to_nat i) as n, (N.to_nat j) as m.
  induction l as [|a l IH]; intros [|n] [|m] H'; cbn; auto; congruence.
Qed.

Lemma upd_ok l i v : bytes_ok l -> v < 256 -> bytes_ok (upd l i v).
Proof.
  unfold bytes_ok, upd. generalize (N.to_nat i) as n.
  induction l as [|a l IH]; intros [|n] H Hv; cbn; auto; inversion H; subst; constructor; auto.
Qed.

(* [sub_set b v w sh] is the byte b with the w-bit field at bit sh replaced by v, as the Rust computes it in u8
   arithmetic; [sb_get b w sh] reads such a field.  Bit by bit, for every field that lies inside the byte. *)
Definition sb_get (b w sh : N) : N := N.land (N.shiftr b sh) (2 ^ w - 1).

Lemma sb_get_bit x w sh j : N.testbit (sb_get x w sh) j = (j <? w) && N.testbit x (j + sh).
Proof. unfold sb_get. rewrite N.land_spec, testbit_pow2m1, N.shiftr_spec'. apply andb_comm. Qed.

Lemma sub_set_bit b v w sh i : b < 256 -> sh + w <= 8 -> v < 2 ^ w ->
  N.testbit (sub_set b v w sh) i = if (sh <=? i) && (i <? sh + w) then N.testbit v (i - sh) else N.testbit b i.
Proof.
  intros Hb Hs Hv. unfold sub_set. change 256 with (2 ^ 8) in *. change 255 with (2 ^ 8 - 1).
  rewrite N.lor_spec, N.land_spec, testbit_compl by apply mod_pow2_lt.
  rewrite !N.shiftl_mul_pow2, !testbit_mod_pow2, !testbit_mul_pow2, testbit_mod_pow2, testbit_pow2m1.
  (* what is left compares i with the ends of the field and of the byte *)
  destruct (N.leb_spec sh i) as [L|L]; cbn [andb negb].
  2:{ rewrite andb_false_r, orb_false_r, andb_true_r. destruct (N.ltb_spec i 8); [apply andb_true_r|lia]. }
  destruct (N.ltb_spec (i - sh) w) as [F|F], (N.ltb_spec i (sh + w)); try lia.
  - destruct (N.ltb_spec i 8), (N.ltb_spec (i - sh) 8); try lia. cbn [andb negb]. rewrite andb_false_r. reflexivity.
  - rewrite (testbit_small v w (i - sh)), !andb_false_r, orb_false_r by assumption.
    destruct (N.ltb_spec i 8); [apply andb_true_r|]. rewrite andb_false_r. symmetry. apply (testbit_small b 8); assumption.
Qed.

Lemma sub_set_fields b v w k : b < 256 -> (k + 1) * w <= 8 -> v < 2 ^ w ->
  sub_set b v w (k * w) < 256 /\ sb_get (sub_set b v w (k * w)) w (k * w) = v /\
  forall k', k' <> k -> sb_get (sub_set b v w (k * w)) w (k' * w) = sb_get b w (k' * w).
Proof.
  intros Hb Hk Hv. rewrite N.mul_add_distr_r, N.mul_1_l in Hk. set (sh := k * w) in *. repeat split.
  - apply (lor_lt _ _ 8); [eapply N.le_lt_trans; [apply land_le|exact Hb]|apply (mod_pow2_lt _ 8)].
  - apply N.bits_inj; intro j. rewrite sb_get_bit, sub_set_bit by assumption.
    destruct (N.ltb_spec j w); cbn [andb]; [|symmetry; apply (testbit_small v w); assumption].
    destruct (N.leb_spec sh (j + sh)), (N.ltb_spec (j + sh) (sh + w)); try lia. cbn [andb]. f_equal. lia.
  - intros k' Hk'. assert (D : k' * w + w <= sh \/ sh + w <= k' * w).
    { destruct (N.lt_total k' k) as [L|[L|L]]; [left|congruence|right]; apply mul_succ_le, L. }
    set (sh' := k' * w) in *. apply N.bits_inj; intro j. rewrite !sb_get_bit, sub_set_bit by assumption.
    destruct (N.ltb_spec j w); cbn [andb]; [|reflexivity].
    destruct (N.leb_spec sh (j + sh')), (N.ltb_spec (j + sh') (sh + w)); cbn [andb]; try reflexivity. lia.
Qed.

Lemma rb_fits_lt ro v : v < 2 ^ (2 ^ ro) -> rb_fits ro v = true.
Proof. intros H. unfold rb_fits. rewrite (proj2 (N.ltb_lt _ _) H). apply orb_true_r. Qed.

Lemma rb_set_refuses ro l i v : ro < 6 -> 2 ^ (2 ^ ro) <= v -> rb_set ro l i v = None.
Proof.
  intros Hro Hv. unfold rb_set, rb_fits.
  rewrite (proj2 (N.leb_gt _ _) Hro), (proj2 (N.ltb_ge _ _) Hv). reflexivity.
Qed.

Lemma rb_set_accepts ro l i v : ro <= 6 -> v < 2 ^ (2 ^ ro) -> exists l', rb_set ro l i v = Some l'.
Proof. intros _ Hv. unfold rb_set. rewrite rb_fits_lt by exact Hv. eexists; reflexivity. Qed.

(* what C15_refcount claims of one width: a value that fits is stored and read back, no other entry changes, and no
   byte outside the entry's own, which start at i * 2^ro / 8 and are 2^ro / 8 or, below a byte, one *)
Definition entry_law (ro : N) : Prop :=
  forall l i v, bytes_ok l -> rb_in_range ro (N.of_nat (length l)) i -> v < 2 ^ (2 ^ ro) ->
  exists l', rb_set ro l i v = Some l' /\ length l' = length l /\ bytes_ok l' /\
    rb_get ro l' i = v /\
    (forall j, j <> i -> rb_get ro l' j = rb_get ro l j) /\
    (forall b, (b < i * 2 ^ ro / 8 \/ i * 2 ^ ro / 8 + N.max 1 (2 ^ ro / 8) <= b) -> byte_at l' b = byte_at l b).

(* widths below a byte: [per] entries of [w] bits in a byte, entry i in byte i / per at bit (i mod per) * w *)
Section SubByte.
  Variables (ro w per : N).
  Hypothesis Hw : 2 ^ ro = w.
  Hypothesis Hper : per * w = 8.
  Hypothesis Hsub : 1 < per.
  Hypothesis Hget : forall l i, rb_get ro l i = sb_get (byte_at l (i / per)) w (i mod per * w).
  Hypothesis Hset : forall l i v, rb_set ro l i v =
    if negb (rb_fits ro v) then None else Some (upd l (i / per) (sub_set (byte_at l (i / per)) v w (i mod per * w))).
  Hypothesis Hrng : forall len i, rb_in_range ro len i = (i / per < len).

  Lemma sub_entry_law : entry_law ro.
  Proof.
    intros l i v Hb Hi Hv. rewrite Hrng in Hi. rewrite Hw in Hv.
    assert (Hw0 : w <> 0) by (intros ->; lia). assert (Hp0 : per <> 0) by lia.
    destruct (sub_set_fields (byte_at l (i / per)) v w (i mod per) (byte_at_lt l _ Hb)) as (A & B & C); [|exact Hv|].
    { rewrite <- Hper. apply N.mul_le_mono_r. pose proof (N.mod_lt i per Hp0). lia. }
    eexists. split; [rewrite Hset, rb_fits_lt by (rewrite Hw; exact Hv); reflexivity|].
    split; [apply upd_length|]. split; [apply upd_ok; assumption|].
    split; [rewrite Hget, byte_at_upd_same by assumption; exact B|]. split.
    - intros j Hj. rewrite !Hget. destruct (N.eq_dec (j / per) (i / per)) as [E|E].
      + rewrite E, byte_at_upd_same by assumption. apply C. intro E2. apply Hj. rewrite (N.div_mod j per), (N.div_mod i per), E, E2 by assumption. reflexivity.
      + rewrite byte_at_upd_other by congruence. reflexivity.
    - (* the entry lies in byte i * w / 8 = i / per alone *)
      intros b Hbb. apply byte_at_upd_other. rewrite Hw, <- Hper, N.div_mul_cancel_r in Hbb by assumption.
      replace (N.max 1 (w / (per * w))) with 1 in Hbb; [lia|].
      rewrite N.div_small; [reflexivity|]. rewrite <- (N.mul_1_l w) at 1. apply N.mul_lt_mono_pos_r; lia.
  Qed.
End SubByte.

(* widths of whole bytes: entry i is the big-endian word in bytes i * n .. i * n + n - 1.  [be_put] writes n base-256
   digits of v there, the one of weight d last, as the nested [upd]s of [rb_set] do; [be_get] adds n bytes up again, as
   the sums of [rb_get] do.  One induction on n serves the four widths. *)
Fixpoint be_get (l : list N) (off : N) (n : nat) : N :=
  match n with O => 0 | S k => be_get l off k * 256 + byte_at l (off + N.of_nat k) end.

Fixpoint be_put (l : list N) (off : N) (n : nat) (v d : N) : list N :=
  match n with O => l | S k => upd (be_put l off k v (d * 256)) (off + N.of_nat k) (v / d mod 256) end.

Lemma be_put_length l off n v d : length (be_put l off n v d) = length l.
Proof. revert d. induction n; intros d; cbn [be_put]; [reflexivity|]. rewrite upd_length. apply IHn. Qed.

Lemma be_put_ok l off n v d : bytes_ok l -> bytes_ok (be_put l off n v d).
Proof.
  intros H. revert d. induction n; intros d; cbn [be_put]; [exact H|].
  apply upd_ok; [apply IHn|apply N.mod_lt; discriminate].
Qed.

Lemma be_put_frame l off n v d b : b < off \/ off + N.of_nat n <= b -> byte_at (be_put l off n v d) b = byte_at l b.
Proof.
  revert d. induction n; intros d Hb; cbn [be_put]; [reflexivity|].
  rewrite byte_at_upd_other by lia. apply IHn. lia.
Qed.

Lemma be_get_ext l l' off n :
  (forall b, off <= b < off + N.of_nat n -> byte_at l' b = byte_at l b) -> be_get l' off n = be_get l off n.
Proof.
  induction n; intros H; cbn [be_get]; [reflexivity|].
  rewrite IHn, H by (intros; try apply H; lia). reflexivity.
Qed.

Lemma be_get_put l off n v d : d <> 0 -> off + N.of_nat n <= N.of_nat (length l) ->
  be_get (be_put l off n v d) off n = (v / d) mod 256 ^ N.of_nat n.
Proof.
  revert d. induction n; intros d Hd H; cbn [be_get be_put]; [symmetry; apply N.mod_1_r|].
  (* the last byte holds the digit of weight d; the bytes before it are written from weight d * 256 on *)
  rewrite (be_get_ext (be_put l off n v (d * 256))) by (intros; apply byte_at_upd_other; lia).
  rewrite IHn, byte_at_upd_same by (rewrite ?be_put_length; lia).
  rewrite Nat2N.inj_succ, N.pow_succ_r', N.mod_mul_r, N.div_div by (try apply N.pow_nonzero; (assumption || discriminate)). lia.
Qed.

Section Word.
  Variables (ro : N) (n : nat).
  Local Notation m := (N.of_nat n).
  Hypothesis Hw : 2 ^ ro = 8 * m.
  Hypothesis Hget : forall l i, rb_get ro l i = be_get l (i * m) n.
  Hypothesis Hset : forall l i v, rb_set ro l i v =
    if negb (rb_fits ro v) then None else Some (be_put l (i * m) n v 1).
  Hypothesis Hrng : forall len i, rb_in_range ro len i -> i * m + m <= len.

  Lemma word_entry_law : entry_law ro.
  Proof.
    intros l i v Hb Hi%Hrng Hv.
    eexists. split; [rewrite Hset, rb_fits_lt by exact Hv; reflexivity|].
    split; [apply be_put_length|]. split; [apply be_put_ok; exact Hb|].
    split; [|split].
    - rewrite Hget, be_get_put, N.div_1_r by (discriminate || exact Hi). apply N.mod_small.
      change 256 with (2 ^ 8). rewrite <- N.pow_mul_r, <- Hw. exact Hv.
    - (* entries i and j share no byte *)
      intros j Hj. rewrite !Hget. apply be_get_ext. intros b Hbb. apply be_put_frame.
      destruct (N.lt_total j i) as [L|[L|L]]; [|congruence|]; pose proof (mul_succ_le _ _ m L); lia.
    - intros b Hbb. apply be_put_frame. assert (1 <= m) by (pose proof (pow2_pos ro); lia).
      rewrite Hw, (N.mul_comm 8), N.mul_assoc, !N.div_mul, N.max_r in Hbb by (assumption || discriminate). exact Hbb.
  Qed.
End Word.

(* unrolled, [be_get] and [be_put] differ from what [rb_get] and [rb_set] spell out by i * n + 0 for i * n, by Horner's form
   of the sum, and by v / 1 for v (the weights 1 * 256 * 256 ... are the model's literals up to computation) *)
Ltac unroll :=
  intros; unfold rb_get, rb_set; cbn [be_get be_put N.of_nat Pos.of_succ_nat Pos.succ];
  rewrite ?N.mul_1_r, N.add_0_r, ?N.div_1_r.

Theorem refcount_entry_laws ro : ro <= 6 -> entry_law ro.
Proof.
  intros H. destruct (ro_cases ro H) as [->|[->|[->|[->|[->|[->| ->]]]]]].
  - apply (sub_entry_law 0 1 8); try reflexivity; intros; unfold rb_get, rb_set, sb_get; rewrite N.mul_1_r; reflexivity.
  - apply (sub_entry_law 1 2 4); reflexivity.
  - apply (sub_entry_law 2 4 2); reflexivity.
  - apply (word_entry_law 3 1); [reflexivity|unroll; lia|unroll; reflexivity|cbn [rb_in_range]; lia].
  - apply (word_entry_law 4 2); [reflexivity|unroll; lia|unroll; reflexivity|cbn [rb_in_range]; lia].
  - apply (word_entry_law 5 4); [reflexivity|unroll; lia|unroll; reflexivity|cbn [rb_in_range]; lia].
  - apply (word_entry_law 6 8); [reflexivity|unroll; lia|unroll; reflexivity|cbn [rb_in_range]; lia].
Qed.

Lemma sb_get_bits b w sh : sb_get b w sh = bits b sh w.
Proof. unfold sb_get, bits. rewrite N.shiftr_div_pow2. apply land_pow2m1. Qed.

(* the model's get is the specification's read: big-endian words, LSB-first sub-byte fields *)
Theorem rb_get_spec ro l i : ro <= 6 -> rb_get ro l i = s_refcount_read ro (byte_at l) i.
Proof.
  intros H. destruct (ro_cases ro H) as [->|[->|[->|[->|[->|[->| ->]]]]]]; unfold s_refcount_read; cbn [N.ltb N.compare Pos.compare Pos.compare_cont].
  1-3: rewrite <- sb_get_bits.
  1: change (2 ^ 0) with 1; rewrite N.mul_1_r.
  1-3: reflexivity.
  (* words: unroll the specification's recursion over the 1, 2, 4, 8 bytes *)
  all: match goal with |- context [N.recursion _ _ ?n] => let n' := eval vm_compute in n in change n with n' end.
  all: cbv [N.recursion N.peano_rect Pos.peano_rect N.succ_pos N.succ Pos.succ]; unfold rb_get;
    rewrite ?N.add_0_r, ?N.mul_1_r; lia.
Qed.
