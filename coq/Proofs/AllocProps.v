(* The allocator's slice scans hand out only entries whose refcount is zero, inside the slice, the first such
   window at or after the start; alloc_range increments exactly the entries of the range. *)
From Coq Require Import NArith List Bool Arith Lia.
From Q.Model Require Import Alloc.

Lemma find_nz_spec l n : forall i,
  match find_nz l i n with
  | None => forall j, i <= j < i + n -> rc_at l j = 0%N
  | Some j => i <= j < i + n /\ rc_at l j <> 0%N
  end.
Proof.
  induction n as [|n IH]; intros i; cbn [find_nz]; [intros j Hj; lia|].
  unfold zero_at. destruct (N.eqb_spec (rc_at l i) 0) as [Z|Z]; [|split; [lia|exact Z]].
  specialize (IH (S i)). destruct (find_nz l (S i) n) as [j|].
  - split; [lia|apply IH].
  - intros j Hj. destruct (Nat.eq_dec j i) as [->|Hne]; [exact Z|]. apply IH. lia.
Qed.

(* the window search: a result is the first window of zeros that starts in [i, ms]; when the fuel covers every
   start that is left, no result means that every window starting there holds a nonzero entry *)
Lemma gfr_loop_spec fuel l count ms : forall i,
  ms + 1 - i <= fuel ->
  match gfr_loop fuel l i count ms with
  | Some (a, b) => b = a + count /\ i <= a <= ms /\ (forall j, a <= j < b -> rc_at l j = 0%N) /\
                   forall s, i <= s < a -> exists j, s <= j < s + count /\ rc_at l j <> 0%N
  | None => forall s, i <= s <= ms -> exists j, s <= j < s + count /\ rc_at l j <> 0%N
  end.
Proof.
  induction fuel as [|f IH]; intros i Hf; cbn [gfr_loop]; [intros s Hs; lia|].
  destruct (Nat.leb_spec i ms) as [Hle|Hgt]; [|intros s Hs; lia].
  pose proof (find_nz_spec l count i) as F. destruct (find_nz l i count) as [j|].
  - (* the scan stopped at a nonzero j: every window starting in [i, j] holds it, the search goes on behind it *)
    destruct F as [Rj Nz]. specialize (IH (S j) ltac:(lia)).
    assert (B : forall s, i <= s <= j -> exists j', s <= j' < s + count /\ rc_at l j' <> 0%N)
      by (intros s Hs; exists j; split; [lia|exact Nz]).
    destruct (gfr_loop f l (S j) count ms) as [[a b]|].
    + destruct IH as (E & R & Zs & Min). split; [exact E|]. split; [lia|]. split; [exact Zs|].
      intros s Hs. destruct (Nat.le_gt_cases s j); [apply B|apply Min]; lia.
    + intros s Hs. destruct (Nat.le_gt_cases s j); [apply B|apply IH]; lia.
  - split; [reflexivity|]. split; [lia|]. split; [exact F|]. intros s Hs. lia.
Qed.

Theorem get_free_range_sound l start count a b :
  start + count <= length l ->
  get_free_range l start count = Some (a, b) ->
  b = a + count /\ start <= a /\ b <= length l /\
  (forall j, a <= j < b -> rc_at l j = 0%N) /\
  (forall s, start <= s < a -> exists j, s <= j < s + count /\ rc_at l j <> 0%N).
Proof.
  intros Hb H. pose proof (gfr_loop_spec (S (length l)) l count (length l - count) start ltac:(lia)) as G.
  unfold get_free_range in H. rewrite H in G. destruct G as (E & R & Zs & Min).
  split; [exact E|]. split; [lia|]. split; [lia|]. split; [exact Zs|exact Min].
Qed.

Theorem get_free_range_complete l start count :
  start + count <= length l ->
  get_free_range l start count = None ->
  forall s, start <= s -> s + count <= length l -> exists j, s <= j < s + count /\ rc_at l j <> 0%N.
Proof.
  intros Hb H s Hs Hs2. pose proof (gfr_loop_spec (S (length l)) l count (length l - count) start ltac:(lia)) as G.
  unfold get_free_range in H. rewrite H in G. apply G. lia.
Qed.

Lemma last_nz_spec l n : match last_nz l n with
  | None => forall j, j < n -> rc_at l j = 0%N
  | Some i => i < n /\ rc_at l i <> 0%N /\ forall j, i < j < n -> rc_at l j = 0%N
  end.
Proof.
  induction n as [|n IH]; cbn [last_nz]; [intros j Hj; lia|].
  unfold zero_at. destruct (N.eqb_spec (rc_at l n) 0) as [Z|Z].
  - destruct (last_nz l n) as [i|].
    + destruct IH as [Hi [Nz Aft]]. split; [lia|]. split; [exact Nz|].
      intros j Hj. destruct (Nat.eq_dec j n) as [->|Hne]; [exact Z|]. apply Aft. lia.
    + intros j Hj. destruct (Nat.eq_dec j n) as [->|Hne]; [exact Z|]. apply IH. lia.
  - split; [lia|]. split; [exact Z|]. intros j Hj. lia.
Qed.

Theorem get_tail_free_range_sound l a b :
  get_tail_free_range l = Some (a, b) ->
  b = length l /\ 0 < a < b /\ rc_at l (a - 1) <> 0%N /\ forall j, a <= j < b -> rc_at l j = 0%N.
Proof.
  unfold get_tail_free_range. pose proof (last_nz_spec l (length l)) as S.
  destruct (last_nz l (length l)) as [i|]; [|discriminate].
  destruct S as [Hi [Nz Aft]]. destruct (Nat.eqb_spec i (length l - 1)); [discriminate|].
  intros H. injection H as <- <-. split; [reflexivity|]. split; [lia|]. split.
  - replace (S i - 1) with i by lia. exact Nz.
  - intros j Hj. apply Aft. lia.
Qed.

Lemma upd_nth_length l i v : length (upd_nth l i v) = length l.
Proof. revert i; induction l as [|x t IH]; intros [|i]; cbn [upd_nth length]; try reflexivity. rewrite IH. reflexivity. Qed.

Lemma upd_nth_get l i v j : i < length l -> rc_at (upd_nth l i v) j = if j =? i then v else rc_at l j.
Proof.
  revert i j; induction l as [|x t IH]; intros i j Hi; [cbn in Hi; lia|].
  destruct i as [|i], j as [|j]; cbn [upd_nth rc_at nth Nat.eqb]; try reflexivity.
  cbn [length] in Hi. unfold rc_at in IH. rewrite (IH i j ltac:(lia)). reflexivity.
Qed.

Theorem alloc_range_spec n : forall l s j,
  s + n <= length l ->
  rc_at (alloc_range l s n) j = if (s <=? j) && (j <? s + n) then (rc_at l j + 1)%N else rc_at l j.
Proof.
  induction n as [|n IH]; intros l s j Hb; cbn [alloc_range].
  - destruct (Nat.leb_spec s j), (Nat.ltb_spec j (s + 0)); cbn [andb]; try reflexivity; lia.
  - rewrite IH by (rewrite upd_nth_length; lia). rewrite upd_nth_get by lia.
    destruct (Nat.leb_spec (S s) j), (Nat.ltb_spec j (S s + n)), (Nat.leb_spec s j), (Nat.ltb_spec j (s + S n)),
             (Nat.eqb_spec j s); cbn [andb]; try lia; try reflexivity.
    subst j. reflexivity.
Qed.

Lemma alloc_range_length n : forall l s, length (alloc_range l s n) = length l.
Proof. induction n as [|n IH]; intros l s; cbn [alloc_range]; [reflexivity|]. rewrite IH, upd_nth_length. reflexivity. Qed.
