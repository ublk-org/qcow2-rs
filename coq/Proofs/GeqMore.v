(* Tie A, continued: Qcow2Info::new with its size helpers, and the two helpers with which flush_meta_generic picks the
   slices under a dirty top-table block. *)
From Coq Require Import NArith List Lia.
From Q.Base Require Import RExpr Bits.
From Q.Model Require Import Codec.
From Q.Gen Require Import GenCodec.
From Q.Proofs Require Import Geometry GenEq.
From Q.Exec Require Import C13Exec.
Import ListNotations.
Open Scope N_scope.

Lemma geq_max_l1_entries size cb l2e :
  cb <= 21 -> 1 <= l2e <= 2 ^ 18 -> size < 2 ^ 64 ->
  call g_Qcow2Info_max_l1_entries [VInt size; VInt cb; VInt l2e] = Ret (VInt (max_l1_entries size cb l2e)).
Proof.
  intros Hcb Hl Hs.
  (* the shift neither wraps nor gives zero *)
  assert (B : 1 * 1 <= l2e * 2 ^ cb) by (apply N.mul_le_mono; [lia|apply pow2_ge1]).
  pose proof (mul_pow2_lt l2e 19 cb ltac:(change (2 ^ 19) with (2 * 2 ^ 18); lia)).
  pose proof (pow2_le_mono (19 + cb) 40 ltac:(lia)).
  pose proof (shl64_small l2e cb ltac:(lia)) as M.
  unfold g_Qcow2Info_max_l1_entries, max_l1_entries. rewrite N.shiftl_mul_pow2, <- M. geq.
Qed.

Lemma geq_get_max_l1_entries size cb :
  9 <= cb <= 21 -> size < 2 ^ 64 ->
  call g_Qcow2Info_get_max_l1_entries [VInt size; VInt cb] = Ret (VInt (get_max_l1_entries size cb)).
Proof.
  intros Hcb Hs. unfold g_Qcow2Info_get_max_l1_entries, get_max_l1_entries. geq. rewrite shl64_1 by lia.
  apply geq_max_l1_entries; [lia| |exact Hs].
  change 8 with (2 ^ 3). rewrite pow2_div by lia. split; [apply pow2_ge1|apply pow2_le_mono; lia].
Qed.

Lemma geq_max_l1_size entries bs :
  entries <= 4194304 -> 1 <= bs -> N.land bs (bs - 1) = 0 ->
  call g_Qcow2Info_max_l1_size [VInt entries; VInt bs] =
  match max_l1_size entries bs with Some v => Ret (VInt v) | None => Panic end.
Proof.
  intros He Hb Hp. unfold g_Qcow2Info_max_l1_size, max_l1_size. geq.
Qed.

Lemma geq_max_refcount_table_size size cb ro bs :
  9 <= cb <= 21 -> ro <= 6 -> size < 2 ^ 64 -> 1 <= bs -> N.land bs (bs - 1) = 0 ->
  call g_Qcow2Info_max_refcount_table_size [VInt size; VInt (2 ^ cb); VInt ro; VInt bs] =
  match max_refcount_table_size size (2 ^ cb) ro bs with Some v => Ret (VInt v) | None => Panic end.
Proof.
  intros Hcb Hro Hs Hb Hp. unfold g_Qcow2Info_max_refcount_table_size, max_refcount_table_size.
  (* in the code's words: the model writes [1 << ro] as a power *)
  pose proof (shl64_1 ro ltac:(lia)) as Ero. pose proof (pow2_ge1 ro).
  rewrite <- Ero. cbv zeta. set (per := 2 ^ cb * 8 / shl64 1 ro * 2 ^ cb).
  (* a block holds 2^(cb+3-ro) refcounts and so covers per = 2^(2cb+3-ro) >= 2^15 bytes: the entry count times 8 fits *)
  assert (Eper : per = 2 ^ (cb + 3 - ro + cb)).
  { unfold per. rewrite Ero. change 8 with (2 ^ 3).
    rewrite <- N.pow_add_r, pow2_div, <- N.pow_add_r by lia. reflexivity. }
  pose proof (pow2_lt_mono cb 22 ltac:(lia)).
  pose proof (pow2_lt_mono (cb + 3 - ro + cb) 46 ltac:(lia)). pose proof (pow2_le_mono 15 (cb + 3 - ro + cb) ltac:(lia)).
  assert ((size + per - 1) / per < 2 ^ 50) by (rewrite Eper; apply N.div_lt_upper_bound; [apply pow2_nz|lia]).
  unfold per in *. geq.
Qed.

(* cache_geometry of Qcow2Info::new (after the default-slice clamp): slice bits and slice count *)
Definition cache_geom (param : option (N * N)) (default_bytes lo hi : N) : N * N :=
  match param with
  | Some (b, s) => (b, N.shiftr s b)
  | None => let b := N.max (N.min 12 hi) lo in (b, N.max (N.shiftr default_bytes b) 2)
  end.

Definition v_param (p : option (N * N)) : value :=
  VOpt (option_map (fun q => VTup [VInt (fst q); VInt (snd q)]) p).

Definition param_ok (p : option (N * N)) (lo hi : N) : Prop :=
  match p with
  | Some (b, s) => lo <= b <= hi /\ 2 <= N.shiftr s b /\ s < 2 ^ 64
  | None => True
  end.

Lemma geq_cache_geometry p d lo hi :
  param_ok p lo hi -> d < 2 ^ 64 -> lo <= 12 -> hi <= 21 ->
  call g_Qcow2Info_new__cache_geometry [v_param p; VInt d; VInt lo; VInt hi] =
  Ret (VTup [VInt (fst (cache_geom p d lo hi)); VInt (snd (cache_geom p d lo hi))]).
Proof.
  intros Hp Hd Hlo Hhi. unfold g_Qcow2Info_new__cache_geometry, cache_geom, v_param.
  destruct p as [[b s]|]; cbn [param_ok] in Hp; geq.
Qed.

Lemma cache_geom_fst p d lo hi : param_ok p lo hi -> lo <= hi -> lo <= fst (cache_geom p d lo hi) <= hi.
Proof. intros Hp Hle. unfold cache_geom. destruct p as [[b s]|]; cbn [fst param_ok] in *; lia. Qed.

Definition v_hdrview (cb ro size : N) (hb : bool) : value := VTup [VInt cb; VInt ro; VInt size; VBool hb].
Definition v_params (bs : N) (rbc l2c : option (N * N)) (rdonly backing : bool) : value :=
  VTup [VInt bs; v_param rbc; v_param l2c; VBool rdonly; VBool backing].

Definition info_new2 (cb ro size : N) (hb : bool) (bs : N) (rbc l2c : option (N * N)) (rdonly backing : bool) : info :=
  let l2mb := N.min (N.shiftr size (cb - 3)) 33554432 in
  let g1 := cache_geom l2c l2mb bs cb in
  let g2 := cache_geom rbc 262144 bs cb in
  info_of cb ro size bs (fst g1) (snd g1) (fst g2) (snd g2) (info_flags rdonly hb backing).

Lemma tz_pow2 w k : trailing_zeros w (2 ^ k) = k.
Proof.
  induction k as [|k IH] using N.peano_ind; [reflexivity|].
  rewrite N.pow_succ_r'. destruct (2 ^ k) as [|p] eqn:E; [elim (pow2_nz k E)|].
  rewrite <- IH. change (2 * N.pos p) with (N.pos p~0). cbn [trailing_zeros tz_pos]. lia.
Qed.

(* The fields as Qcow2Info::new computes them: counts as quotients of the cluster size, index shifts as their
   [trailing_zeros].  They are the powers of two and the shift amounts that [info_of] writes down; the bounds are what
   the checks of the evaluation need. *)
Lemma info_of_computed cb ro size bs l2sb l2cnt rbsb rbcnt fl :
  9 <= cb <= 21 -> ro <= 6 -> 9 <= l2sb <= cb -> 9 <= rbsb <= cb ->
  let cs := shl64 1 cb in
  let l2se := N.shiftr ((cs / 8) mod 4294967296) (cb - l2sb) in
  let rbe := cs * 8 / shl64 1 ro in
  let rbse := N.shiftr (shl32 1 (rbsb + 3)) ro in
  info_of cb ro size bs l2sb l2cnt rbsb rbcnt fl =
  {| block_size_shift := bs; cluster_shift := cb;
     l2_index_shift := trailing_zeros 64 (cs / 8); l2_slice_index_shift := trailing_zeros 32 l2se;
     l2_slice_bits := l2sb; refcount_order := ro; rb_slice_bits := rbsb;
     rb_index_shift := trailing_zeros 64 rbe; rb_slice_index_shift := trailing_zeros 32 rbse;
     flags := fl; l2_slice_entries := l2se; in_cluster_offset_mask := cs - 1; l2_index_mask := cs / 8 - 1;
     rb_index_mask := rbe - 1; l2_cache_cnt := l2cnt; rb_cache_cnt := rbcnt; virtual_size := size |}
  /\ (1 <= cs /\ cs * 8 < 2 ^ 64 /\ 1 <= cs / 8 /\ 1 <= shl64 1 ro /\ 1 <= rbe)
  /\ (trailing_zeros 64 (cs / 8) < 256 /\ trailing_zeros 32 l2se < 256 /\
      trailing_zeros 64 rbe < 256 /\ trailing_zeros 32 rbse < 256).
Proof.
  intros Hcb Hro Hl2 Hrb cs l2se rbe rbse.
  assert (Ecs : cs = 2 ^ cb) by (apply shl64_1; lia).
  assert (E1 : cs / 8 = 2 ^ (cb - 3)) by (rewrite Ecs; change 8 with (2 ^ 3); apply pow2_div; lia).
  assert (E2 : l2se = 2 ^ (l2sb - 3)).
  { unfold l2se. rewrite E1, (pow2_mod_small _ 32), N.shiftr_div_pow2, pow2_div by lia. f_equal. lia. }
  assert (E3 : rbe = 2 ^ (cb + 3 - ro)).
  { unfold rbe. rewrite Ecs, shl64_1 by lia. change 8 with (2 ^ 3). rewrite <- N.pow_add_r. apply pow2_div. lia. }
  assert (E4 : rbse = 2 ^ (rbsb + 3 - ro)).
  { unfold rbse, shl32. rewrite shiftl_1, (pow2_mod_small _ 32), N.shiftr_div_pow2 by lia. apply pow2_div. lia. }
  rewrite E1, E2, E3, E4, !tz_pow2, Ecs, shl64_1 by lia.
  (* the rest is about the shift amounts; [lia] would pay for every subtraction in the equations above *)
  clear - Hcb Hro Hl2 Hrb. split; [|split].
  - unfold info_of. cbv zeta. change 8 with (2 ^ 3). rewrite N.shiftr_div_pow2, <- N.pow_add_r, !pow2_div by lia.
    replace (cb - 3 - (cb - l2sb)) with (l2sb - 3) by lia. reflexivity.
  - pose proof (pow2_lt_mono cb 22 ltac:(lia)). repeat split; try apply pow2_ge1; lia.
  - lia.
Qed.

Lemma geq_info_new cb ro size hb bs rbc l2c rdonly backing :
  9 <= cb <= 21 -> ro <= 6 -> size < 2 ^ 64 -> 9 <= bs <= 12 -> bs <= cb ->
  param_ok rbc bs cb -> param_ok l2c bs cb ->
  snd (cache_geom rbc 262144 bs cb) < 2 ^ 32 -> snd (cache_geom l2c (N.min (N.shiftr size (cb - 3)) 33554432) bs cb) < 2 ^ 32 ->
  (backing = true -> rdonly = true) ->
  call g_Qcow2Info_new [v_hdrview cb ro size hb; v_params bs rbc l2c rdonly backing] =
  Ret (VRes (inl (v_info (info_new2 cb ro size hb bs rbc l2c rdonly backing)))).
Proof.
  intros Hcb Hro Hs Hbs Hbc Hp1 Hp2 Hc1 Hc2 Hback.
  unfold v_hdrview, v_params, info_new2.
  pose proof (cache_geom_fst l2c (N.min (N.shiftr size (cb - 3)) 33554432) bs cb Hp2 Hbc) as F1.
  pose proof (cache_geom_fst rbc 262144 bs cb Hp1 Hbc) as F2.
  assert (Hmb : N.min (N.shiftr size (cb - 3)) 33554432 < 2 ^ 64) by lia.
  remember (cache_geom l2c (N.min (N.shiftr size (cb - 3)) 33554432) bs cb) as g1 eqn:G1.
  remember (cache_geom rbc 262144 bs cb) as g2 eqn:G2.
  destruct (info_of_computed cb ro size bs (fst g1) (snd g1) (fst g2) (snd g2) (info_flags rdonly hb backing))
    as (E & B & T); [lia..|]. cbv zeta in B, T.
  (* [checked_shl] of the cluster size succeeds *)
  assert (C64 : (cb <? 64) = true) by (apply N.ltb_lt; lia).
  destruct backing; [rewrite (Hback eq_refl) in *|].
  all: unfold g_Qcow2Info_new; go; step; rewrite C64; go.
  all: repeat step.
  all: rewrite (geq_cache_geometry l2c _ bs cb Hp2 Hmb ltac:(lia) ltac:(lia)), <- G1; go.
  all: rewrite (geq_cache_geometry rbc 262144 bs cb Hp1 ltac:(reflexivity) ltac:(lia) ltac:(lia)), <- G2; go.
  all: repeat step.
  (* the record comes in only now: the evaluation would have walked through it at every statement *)
  all: rewrite E; reflexivity.
Qed.

(* top-table offset -> first slice key: flush_meta_generic picks the slices to flush with these *)
Definition rb_key_of_rt_off (i : info) (off : N) : N :=
  hc_rb_slice_key i (shl64 (shl64 (N.shiftr off 3) (rb_index_shift i)) (cluster_shift i)).
Definition l2_key_of_l1_off (i : info) (off : N) : N :=
  sg_l2_slice_key i (shl64 (shl64 (N.shiftr off 3) (l2_index_shift i)) (cluster_shift i)).


Lemma geq_rb_slice_key_of_rt_off i off : info_rng i -> off < 2 ^ 64 ->
  call g_rb_slice_key_of_rt_off [dev_of i; VInt off] = Ret (VInt (rb_key_of_rt_off i off)).
Proof. intros R Ho. lin R. unfold g_rb_slice_key_of_rt_off, rb_key_of_rt_off, dev_of. geq. Qed.

Lemma geq_l2_slice_key_of_l1_off i off : info_rng i -> off < 2 ^ 64 ->
  call g_l2_slice_key_of_l1_off [dev_of i; VInt off] = Ret (VInt (l2_key_of_l1_off i off)).
Proof. intros R Ho. lin R. unfold g_l2_slice_key_of_l1_off, l2_key_of_l1_off, dev_of. geq. Qed.

(* the byte offsets 8 idx and 8 (idx+1) of the two top-table entries fit in u64 *)
Lemma window_off_fits idx e : 3 <= e -> (idx + 1) * 2 ^ e < 2 ^ 64 -> 8 * (idx + 1) < 2 ^ 64.
Proof.
  intros He B. eapply N.le_lt_trans; [|exact B]. rewrite (N.mul_comm 8). apply N.mul_le_mono_l, (pow2_le_mono 3 e He).
Qed.

Lemma div_window q d idx : d <> 0 -> q / d = idx -> idx * d <= q < (idx + 1) * d.
Proof.
  intros Hd <-. pose proof (N.div_mod' q d). pose proof (N.mod_lt q d Hd). pose proof (N.le_0_l (q mod d)). lia.
Qed.

(* Both helpers compute, from the byte offset 8 j of top-table entry j, the first slice key under that entry: with c
   the cluster shift, t the index shift of the second-level table and s <= t that of a slice, the key is j * 2^(t-s).
   So the slices of whatever lies under entry idx (x >> (t+c) = idx) have their keys between those of 8 idx and
   8 (idx+1). *)
Lemma key_of_entry c s t j : s <= t -> j * 2 ^ (t + c) < 2 ^ 64 ->
  N.shiftr (shl64 (shl64 (N.shiftr (8 * j) 3) t) c) (c + s) = j * 2 ^ (t - s).
Proof.
  intros Hs B.
  replace (N.shiftr (8 * j) 3) with j
    by (rewrite N.shiftr_div_pow2, N.mul_comm; symmetry; apply N.div_mul; discriminate).
  assert (j * 2 ^ t <= j * 2 ^ (t + c)) by (apply N.mul_le_mono_l, pow2_le_mono; lia).
  rewrite (shl64_small j t), shl64_small, <- N.mul_assoc, <- N.pow_add_r, N.shiftr_div_pow2
    by (rewrite <- ?N.mul_assoc, <- ?N.pow_add_r; lia).
  replace (t + c) with (t - s + (c + s)) by lia. rewrite N.pow_add_r, N.mul_assoc. apply N.div_mul, pow2_nz.
Qed.

Lemma key_window c s t idx x : s <= t -> (idx + 1) * 2 ^ (t + c) < 2 ^ 64 -> N.shiftr x (t + c) = idx ->
  let key off := N.shiftr (shl64 (shl64 (N.shiftr off 3) t) c) (c + s) in
  key (8 * idx) <= N.shiftr x (c + s) < key (8 * (idx + 1)).
Proof.
  intros Hs B E key. unfold key. rewrite !key_of_entry by lia.
  rewrite N.shiftr_div_pow2 in *. apply div_window; [apply pow2_nz|].
  rewrite div_div_pow2. replace (c + s + (t - s)) with (t + c) by lia. exact E.
Qed.
