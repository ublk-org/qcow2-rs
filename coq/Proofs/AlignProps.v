(* Alignment provenance (C16): host offsets the device computes for data and slice I/O are multiples of the block
   size whenever the guest offset is, over the model of the address arithmetic (Model/Codec.v, proved equal to the
   regenerated Rust functions in Proofs/GenEq.v). *)
From Coq Require Import NArith Bool Lia.
From Q.Base Require Import Bits.
From Q.Model Require Import Codec.
From Q.Proofs Require Import Geometry.
Open Scope N_scope.

Lemma mod_pow2_weaken a m n : n <= m -> a mod 2 ^ m = 0 -> a mod 2 ^ n = 0.
Proof.
  intros Hle H. rewrite <- (N.min_r m n Hle), <- mod_pow2_min, H. apply N.mod_0_l, pow2_nz.
Qed.

Lemma add_mod_zero a b n : a mod 2 ^ n = 0 -> b mod 2 ^ n = 0 -> (a + b) mod 2 ^ n = 0.
Proof.
  intros Ha Hb. rewrite N.add_mod, Ha, Hb by apply pow2_nz. apply N.mod_0_l, pow2_nz.
Qed.

(* data I/O: host offset = cluster offset of the (specification-valid, i.e. cluster aligned) entry + offset in cluster *)
Theorem data_offset_aligned i v g h :
  info_rng i -> block_size_shift i <= cluster_shift i ->
  g mod 2 ^ block_size_shift i = 0 ->
  l2_cluster_offset v mod 2 ^ cluster_shift i = 0 ->
  m_plain_offset (l2_into_mapping i v g) (sg_in_cluster_offset i g) = Some h ->
  h mod 2 ^ block_size_shift i = 0.
Proof.
  intros R Hle Hg Hv M.
  assert (A : sg_in_cluster_offset i g mod 2 ^ block_size_shift i = 0).
  { rewrite (in_cluster_mod i g R), mod_pow2_min, N.min_r by exact Hle. exact Hg. }
  unfold m_plain_offset, l2_into_mapping in M.
  destruct (l2_compressed_range (cluster_shift i) v) as [[o l]|]; [discriminate|].
  destruct (l2_is_zero v); [discriminate|].
  destruct (l2_cluster_offset v =? 0).
  - destruct (l2_is_copied v || has_back_file i); discriminate.
  - cbn in M. destruct (l2_is_copied v); [|discriminate]. injection M as <-.
    apply add_mod_zero; [apply (mod_pow2_weaken _ _ _ Hle Hv)|exact A].
Qed.

(* slice I/O: the offset of a slice inside its table is a multiple of the slice size, hence of the block size *)
Lemma slice_offset_aligned tbl x sb cs bs : bs <= sb <= cs -> tbl mod 2 ^ cs = 0 ->
  (tbl + shl64 x sb) mod 2 ^ bs = 0.
Proof.
  intros Hb Ht. apply add_mod_zero; [apply (mod_pow2_weaken _ cs); [lia|exact Ht]|].
  unfold shl64. rewrite mod_pow2_min, N.shiftl_mul_pow2. apply mul_pow2_mod. lia.
Qed.

(* slice I/O lengths: a slice is 2^slice_bits bytes, a multiple of the block size.  That it ends inside its table
   cluster, so that slice I/O never leaves the table it belongs to, is Geometry.slice_off_fits. *)
Lemma slice_len_aligned n b : b <= n -> 2 ^ n mod 2 ^ b = 0.
Proof. intros H. rewrite <- (N.mul_1_l (2 ^ n)). apply mul_pow2_mod. exact H. Qed.
