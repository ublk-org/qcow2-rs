(* Invariants and functional behaviour of the cluster-level device model (Model/Dev.v), for every
   state satisfying the invariant, every operation, every allocation choice that passes the guard. *)
From Coq Require Import NArith List Bool Lia.
From Q.Model Require Import Dev.
Import ListNotations.
Open Scope N_scope.

Definition b2n (b : bool) : N := if b then 1 else 0.

Lemma b2n_eqb_refl h : b2n (h =? h) = 1.
Proof. rewrite N.eqb_refl. reflexivity. Qed.

Lemma upd_same {A} (f : N -> A) k v : upd f k v k = v.
Proof. unfold upd. rewrite N.eqb_refl. reflexivity. Qed.

Lemma upd_other {A} (f : N -> A) k v x : x <> k -> upd f k v x = f x.
Proof. unfold upd. intros H. destruct (N.eqb_spec x k); [contradiction|reflexivity]. Qed.

Lemma cntb_ext f g s n :
  (forall i, s <= i < s + N.of_nat n -> f i = g i) -> cntb f s n = cntb g s n.
Proof.
  revert s; induction n as [|n IH]; intros s H; cbn [cntb]; [reflexivity|].
  rewrite (H s) by lia. f_equal. apply IH. intros i Hi. apply H. lia.
Qed.

(* f and g agree except at j: their counts differ by what they say at j (stated without subtraction) *)
Lemma cntb_upd f g s n j :
  s <= j < s + N.of_nat n -> (forall i, i <> j -> g i = f i) ->
  cntb g s n + b2n (f j) = cntb f s n + b2n (g j).
Proof.
  revert s; induction n as [|n IH]; intros s Hj H; [lia|].
  cbn [cntb]. destruct (N.eq_dec s j) as [->|Hne].
  - rewrite (cntb_ext g f (N.succ j) n) by (intros i Hi; apply H; lia).
    unfold b2n. destruct (f j), (g j); lia.
  - rewrite (H s Hne). specialize (IH (N.succ s) ltac:(lia) H). lia.
Qed.

Lemma cntb_zero f s n i : cntb f s n = 0 -> s <= i < s + N.of_nat n -> f i = false.
Proof.
  intros Z Hi. pose proof (cntb_upd f (upd f i false) s n i Hi (upd_other f i false)) as U.
  rewrite Z, upd_same in U. destruct (f i); [cbn in U; lia|reflexivity].
Qed.

Lemma cntb_false f s n : (forall i, f i = false) -> cntb f s n = 0.
Proof. intros H. revert s; induction n as [|n IH]; intros s; cbn [cntb]; [reflexivity|rewrite H, IH; reflexivity]. Qed.

Record Inv (c : cfg) (s : st) : Prop := {
  inv_rc : forall h, s_rc s h = drefs c s h;
  inv_one : forall gc h, gc < c_nclu c -> (s_map s gc = CData h \/ s_map s gc = CZeroPre h) -> s_rc s h = 1;
  inv_out : forall gc, c_nclu c <= gc -> s_map s gc = CUn
}.

Definition owns (x : cl) (h : N) : Prop := x = CData h \/ x = CZeroPre h.

Lemma touches_owns x h h' : owns x h -> touches x h' = (h' =? h).
Proof. intros [->| ->]; reflexivity. Qed.

Lemma owns_touches x h : owns x h -> touches x h = true.
Proof. intros O. rewrite (touches_owns x h h O). apply N.eqb_refl. Qed.

Lemma nclu_range c gc : gc < c_nclu c -> 0 <= gc < 0 + N.of_nat (N.to_nat (c_nclu c)).
Proof. lia. Qed.

Lemma refs_remap c s s' gc h :
  gc < c_nclu c -> (forall g, g <> gc -> s_map s' g = s_map s g) -> s_meta s' = s_meta s ->
  drefs c s' h + b2n (touches (s_map s gc) h) = drefs c s h + b2n (touches (s_map s' gc) h).
Proof.
  intros Hgc Mo Me. unfold drefs. rewrite Me.
  pose proof (cntb_upd (fun g => touches (s_map s g) h) (fun g => touches (s_map s' g) h) 0 (N.to_nat (c_nclu c)) gc
                (nclu_range c gc Hgc) (fun g Hg => f_equal (fun y => touches y h) (Mo g Hg))) as U.
  lia.
Qed.

Lemma refs_same_map c s rc' host' h :
  drefs c {| s_map := s_map s; s_rc := rc'; s_meta := s_meta s; s_host := host' |} h = drefs c s h.
Proof. reflexivity. Qed.

Lemma drefs_zero c s h :
  drefs c s h = 0 -> (forall g, g < c_nclu c -> touches (s_map s g) h = false) /\ s_meta s h = false.
Proof.
  unfold drefs. intros Z. split.
  - intros g Hg. apply (cntb_zero (fun g => touches (s_map s g) h) 0 (N.to_nat (c_nclu c)) g); [lia|exact (nclu_range c g Hg)].
  - destruct (s_meta s h); [lia|reflexivity].
Qed.

(* the references to h are gc's own, if it has one, and those left when gc is unmapped *)
Lemma refs_split c s gc h :
  Inv c s -> gc < c_nclu c ->
  s_rc s h = b2n (touches (s_map s gc) h)
             + drefs c {| s_map := upd (s_map s) gc CUn; s_rc := s_rc s; s_meta := s_meta s; s_host := s_host s |} h.
Proof.
  intros I Hgc.
  pose proof (refs_remap c s {| s_map := upd (s_map s) gc CUn; s_rc := s_rc s; s_meta := s_meta s; s_host := s_host s |}
                gc h Hgc (upd_other (s_map s) gc CUn) eq_refl) as R.
  cbn [s_map] in R. rewrite upd_same, <- (inv_rc c s I h) in R. cbn [touches b2n] in R. lia.
Qed.

(* a host cluster with refcount 1 that one guest cluster touches is touched by no other and is not metadata *)
Lemma unique_owner c s gc gc' h :
  Inv c s -> gc < c_nclu c -> s_rc s h = 1 -> touches (s_map s gc) h = true ->
  (gc' <> gc -> touches (s_map s gc') h = false) /\ s_meta s h = false.
Proof.
  intros I Hgc Hrc Ht. pose proof (refs_split c s gc h I Hgc) as R. rewrite Hrc, Ht in R.
  (* so nothing refers to h once gc is unmapped *)
  symmetry in R. apply (N.add_cancel_l _ 0 1), drefs_zero in R. destruct R as [U Me]. split; [|exact Me].
  intros Hne. destruct (N.lt_ge_cases gc' (c_nclu c)) as [Hlt|Hge].
  - specialize (U gc' Hlt). cbn [s_map] in U. rewrite upd_other in U by exact Hne. exact U.
  - rewrite (inv_out c s I gc' Hge). reflexivity.
Qed.

Lemma free_spec s h : free s h = true <-> s_rc s h = 0 /\ s_meta s h = false.
Proof. unfold free. rewrite andb_true_iff, N.eqb_eq, negb_true_iff. reflexivity. Qed.

Lemma free_untouched c s h gc :
  Inv c s -> free s h = true -> touches (s_map s gc) h = false.
Proof.
  intros I [Z _]%free_spec. rewrite (inv_rc c s I h) in Z.
  destruct (N.lt_ge_cases gc (c_nclu c)) as [Hlt|Hge].
  - exact (proj1 (drefs_zero c s h Z) gc Hlt).
  - rewrite (inv_out c s I gc Hge). reflexivity.
Qed.

(* host cluster h is available to guest cluster gc: gc may be remapped onto it *)
Definition avail (s : st) (gc h : N) : Prop := owns (s_map s gc) h \/ free s h = true.

(* such a cluster carries no reference but gc's own *)
Lemma avail_rc c s gc h : Inv c s -> gc < c_nclu c -> avail s gc h -> s_rc s h = b2n (touches (s_map s gc) h).
Proof.
  intros I Hgc [O|F].
  - rewrite (inv_one c s I gc h Hgc O), (owns_touches _ _ O). reflexivity.
  - rewrite (free_untouched c s h gc I F). apply free_spec in F. apply F.
Qed.

Lemma avail_alone c s gc g h :
  Inv c s -> gc < c_nclu c -> avail s gc h -> g <> gc -> touches (s_map s g) h = false.
Proof.
  intros I Hgc [O|F] Hne; [|exact (free_untouched c s h g I F)].
  exact (proj1 (unique_owner c s gc g h I Hgc (inv_one c s I gc h Hgc O) (owns_touches _ _ O)) Hne).
Qed.

(* s' comes from s by a step on guest cluster gc alone: refcounts follow the references gc gives up and takes; what
   gc newly touches, and the host data that changes, lie in host clusters available to gc *)
Record remaps (s s' : st) (gc : N) : Prop := {
  rm_map : forall g, g <> gc -> s_map s' g = s_map s g;
  rm_meta : s_meta s' = s_meta s;
  rm_rc : forall h, s_rc s' h + b2n (touches (s_map s gc) h) = s_rc s h + b2n (touches (s_map s' gc) h);
  rm_new : forall h, touches (s_map s' gc) h = true -> avail s gc h;
  rm_host : forall h, avail s gc h \/ s_host s' h = s_host s h
}.

Lemma remap_inv c s s' gc : Inv c s -> gc < c_nclu c -> remaps s s' gc -> Inv c s'.
Proof.
  intros I Hgc [Mo Me Bal New _]. constructor.
  - intros h. pose proof (refs_remap c s s' gc h Hgc Mo Me). pose proof (inv_rc c s I h). specialize (Bal h). lia.
  - intros g h Hg O. specialize (Bal h). destruct (N.eq_dec g gc) as [->|Hne].
    + apply owns_touches in O. rewrite O, (avail_rc c s gc h I Hgc (New h O)) in Bal. cbn [b2n] in Bal. lia.
    + (* h belongs to g, so it is not available to gc, so gc does not come to touch it *)
      rewrite (Mo g Hne) in O. pose proof (inv_one c s I g h Hg O) as R1.
      pose proof (avail_alone c s g gc h I Hg (or_introl O) (not_eq_sym Hne)) as T.
      destruct (touches (s_map s' gc) h) eqn:X; [apply New, (avail_rc c s gc h I Hgc) in X|];
        rewrite T in *; cbn [b2n] in *; lia.
  - intros g Hg. rewrite Mo by lia. exact (inv_out c s I g Hg).
Qed.

(* reads outside guest cluster gc are unchanged: a host cluster whose data changes is available to gc, so no other
   guest cluster reads it *)
Lemma read_frame c s s' gc b :
  Inv c s -> gc < c_nclu c -> remaps s s' gc -> b / c_bpc c <> gc -> read_block c s' b = read_block c s b.
Proof.
  intros I Hgc [Mo _ _ _ Hh] E. unfold read_block. rewrite (Mo _ E).
  destruct (s_map s (b / c_bpc c)) as [| | |h|] eqn:Mb; try reflexivity.
  destruct (Hh h) as [Av| ->]; [|reflexivity].
  pose proof (avail_alone c s gc _ h I Hgc Av E) as T. rewrite Mb in T. cbn [touches] in T.
  rewrite N.eqb_refl in T. discriminate.
Qed.

Lemma dec_run_spec rc h0 k j :
  dec_run rc h0 k j = if (h0 <=? j) && (j <? h0 + N.of_nat k) then rc j - 1 else rc j.
Proof.
  revert rc h0; induction k as [|k IH]; intros rc h0.
  - cbn [dec_run]. destruct (N.leb_spec h0 j), (N.ltb_spec j (h0 + N.of_nat 0)); cbn; try reflexivity; lia.
  - cbn [dec_run]. rewrite IH.
    destruct (N.leb_spec (N.succ h0) j), (N.ltb_spec j (N.succ h0 + N.of_nat k)),
             (N.leb_spec h0 j), (N.ltb_spec j (h0 + N.of_nat (S k))); cbn [andb]; try lia;
      try (rewrite upd_other by lia; reflexivity).
    assert (j = h0) by lia. subst j. rewrite upd_same. reflexivity.
Qed.

Lemma block_split bpc b : b / bpc * bpc + b mod bpc = b.
Proof. pose proof (N.div_mod' b bpc). lia. Qed.

(* read off the definition, case by case: gc ends as a data cluster on hx, which holds the written blocks over src,
   the content gc had before; hx is gc's own host cluster if it has one, and else the free hn, which gains a
   reference while every host cluster gc touched loses one *)
Lemma write_cluster_shape c s gc off len v hn s' :
  write_cluster c s gc off len v hn = Some s' ->
  exists hx src,
    s_map s' gc = CData hx /\
    (owns (s_map s gc) hx /\ s_rc s' = s_rc s \/
     hx = hn /\ free s hn = true /\
     forall h, s_rc s' h = if touches (s_map s gc) h then upd (s_rc s) hn 1 h - 1 else upd (s_rc s) hn 1 h) /\
    (forall g, g <> gc -> s_map s' g = s_map s g) /\ s_meta s' = s_meta s /\
    s_host s' = upd (s_host s) hx (fill c gc off len v src) /\
    forall b, b / c_bpc c = gc -> src (b mod c_bpc c) = read_block c s b.
Proof.
  intros W. unfold write_cluster in W.
  destruct (s_map s gc) as [| |h|h|h0 k] eqn:M; try (destruct (free s hn); [|discriminate]);
    injection W as <-; eexists _, _; cbn [s_map s_rc s_meta s_host];
    (repeat apply conj;
     [first [apply upd_same|exact M] | | intros g Hg; first [apply upd_other; exact Hg|reflexivity] | reflexivity | reflexivity
     | intros b <-; unfold read_block; rewrite M, ?block_split; reflexivity]).
  1, 2, 5: right; split; [reflexivity|]; split; [reflexivity|]; intros h; rewrite ?dec_run_spec, ?N2Nat.id; reflexivity.
  - left. split; [right|]; reflexivity.
  - left. split; [left|]; reflexivity.
Qed.

Lemma write_cluster_remaps c s gc off len v hn s' :
  Inv c s -> gc < c_nclu c -> write_cluster c s gc off len v hn = Some s' -> remaps s s' gc.
Proof.
  intros I Hgc W. destruct (write_cluster_shape c s gc off len v hn s' W) as (hx & src & Mg & Rc & Mo & Me & Hh & _).
  assert (Av : avail s gc hx) by (destruct Rc as [[O _]|(-> & F & _)]; [left; exact O|right; exact F]).
  constructor; [exact Mo|exact Me| | |]; intros h; rewrite ?Mg, ?Hh; cbn [touches].
  - destruct Rc as [[O ->]|(-> & [Z _]%free_spec & ->)]; [rewrite (touches_owns _ _ h O); reflexivity|].
    (* hn had no reference; a host cluster that gc touched had one to lose *)
    pose proof (refs_split c s gc h I Hgc) as R. unfold upd.
    destruct (touches (s_map s gc) h), (N.eqb_spec h hn) as [->|_]; cbn [b2n] in *; lia.
  - intros ->%N.eqb_eq. exact Av.
  - destruct (N.eq_dec h hx) as [->|Hne]; [left; exact Av|right; apply upd_other; exact Hne].
Qed.

Lemma write_cluster_ok c s gc off len v hn s' :
  Inv c s -> gc < c_nclu c -> write_cluster c s gc off len v hn = Some s' ->
  Inv c s' /\
  forall b, read_block c s' b = if (b / c_bpc c =? gc) && inr off len b then v b else read_block c s b.
Proof.
  intros I Hgc W. pose proof (write_cluster_remaps c s gc off len v hn s' I Hgc W) as R.
  split; [exact (remap_inv c s s' gc I Hgc R)|].
  intros b. destruct (N.eqb_spec (b / c_bpc c) gc) as [E|E]; cbn [andb]; [|exact (read_frame c s s' gc b I Hgc R E)].
  destruct (write_cluster_shape c s gc off len v hn s' W) as (hx & src & Mg & _ & _ & _ & Hh & Src).
  rewrite <- (Src b E). unfold read_block. rewrite E, Mg, Hh, upd_same. unfold fill.
  rewrite <- E, block_split. reflexivity.
Qed.

(* a host cluster handed out by an accepted write was free: refcount zero, referenced by nothing *)
Theorem alloc_was_free c s gc off len v hn s' :
  Inv c s -> write_cluster c s gc off len v hn = Some s' ->
  (forall h, s_map s gc <> CData h) -> (forall h, s_map s gc <> CZeroPre h) ->
  s_rc s hn = 0 /\ s_meta s hn = false /\ (forall g, touches (s_map s g) hn = false) /\ s_map s' gc = CData hn.
Proof.
  intros I W ND NZ.
  destruct (write_cluster_shape c s gc off len v hn s' W) as (hx & _ & Mg & [[[O|O] _]|(-> & F & _)] & _).
  - elim (ND hx O).
  - elim (NZ hx O).
  - destruct (proj1 (free_spec s hn) F) as [F1 F2].
    split; [exact F1|]. split; [exact F2|]. split; [intros g; exact (free_untouched c s hn g I F)|exact Mg].
Qed.

Lemma write_clusters_ok c off len v ch gcs : forall s s',
  Inv c s -> Forall (fun gc => gc < c_nclu c) gcs ->
  write_clusters c s gcs off len v ch = Some s' ->
  Inv c s' /\
  forall b, read_block c s' b =
            if existsb (N.eqb (b / c_bpc c)) gcs && inr off len b then v b else read_block c s b.
Proof.
  induction gcs as [|gc r IH]; intros s s' I HF W; cbn [write_clusters] in W.
  - injection W as <-. split; [exact I|reflexivity].
  - destruct (write_cluster c s gc off len v (ch gc)) as [s1|] eqn:W1; [|discriminate].
    inversion HF as [|? ? Hgc HF']; subst.
    destruct (write_cluster_ok c s gc off len v (ch gc) s1 I Hgc W1) as [I1 R1].
    destruct (IH s1 s' I1 HF' W) as [I' R]. split; [exact I'|].
    intros b. rewrite R, R1. cbn [existsb].
    destruct (b / c_bpc c =? gc), (existsb (N.eqb (b / c_bpc c)) r), (inr off len b); reflexivity.
Qed.

Lemma seqN_In s n x : In x (seqN s n) <-> s <= x < s + N.of_nat n.
Proof.
  revert s; induction n as [|n IH]; intros s; cbn [seqN In].
  - lia.
  - rewrite IH. lia.
Qed.

Lemma existsb_eqb_In x l : existsb (N.eqb x) l = true <-> In x l.
Proof.
  rewrite existsb_exists. split.
  - intros [y [Hy ->%N.eqb_eq]]. exact Hy.
  - intros H. exists x. split; [exact H|apply N.eqb_refl].
Qed.

Lemma existsb_seqN s n x : existsb (N.eqb x) (seqN s n) = (s <=? x) && (x <? s + N.of_nat n).
Proof.
  apply eq_true_iff_eq. rewrite existsb_eqb_In, seqN_In, andb_true_iff, N.leb_le, N.ltb_lt. reflexivity.
Qed.

Lemma clusters_of_bound c off len :
  0 < c_bpc c -> off + len <= c_nclu c * c_bpc c ->
  Forall (fun gc => gc < c_nclu c) (clusters_of c off len).
Proof.
  intros Hb Hle. unfold clusters_of. destruct (N.eqb_spec len 0) as [E|E]; [constructor|].
  apply Forall_forall. intros x Hx. apply seqN_In in Hx.
  assert (D : off / c_bpc c <= (off + len - 1) / c_bpc c) by (apply N.div_le_mono; lia).
  assert (U : (off + len - 1) / c_bpc c < c_nclu c) by (apply N.div_lt_upper_bound; lia).
  lia.
Qed.

Lemma clusters_of_cover c off len b :
  0 < c_bpc c -> inr off len b = true -> existsb (N.eqb (b / c_bpc c)) (clusters_of c off len) = true.
Proof.
  intros Hb [H1%N.leb_le H2%N.ltb_lt]%andb_prop.
  unfold clusters_of. destruct (N.eqb_spec len 0) as [E|E]; [lia|].
  rewrite existsb_seqN. apply andb_true_intro. rewrite N.leb_le, N.ltb_lt.
  assert (D1 : off / c_bpc c <= b / c_bpc c) by (apply N.div_le_mono; lia).
  assert (D2 : b / c_bpc c <= (off + len - 1) / c_bpc c) by (apply N.div_le_mono; lia).
  lia.
Qed.

(* a write changes exactly the written blocks (C01 read-your-writes, C03 frame) *)
Theorem write_ok c s off len v ch s' :
  Inv c s -> 0 < c_bpc c -> off + len <= c_nclu c * c_bpc c ->
  write c s off len v ch = Some s' ->
  Inv c s' /\ forall b, read_block c s' b = if inr off len b then v b else read_block c s b.
Proof.
  intros I Hb Hle W.
  destruct (write_clusters_ok c off len v ch _ s s' I (clusters_of_bound c off len Hb Hle) W) as [I' R].
  split; [exact I'|]. intros b. rewrite R. destruct (inr off len b) eqn:E.
  - rewrite (clusters_of_cover c off len b Hb E). reflexivity.
  - rewrite andb_false_r. reflexivity.
Qed.

Definition owns_b (x : cl) : bool := match x with CData _ | CZeroPre _ => true | _ => false end.

Lemma owns_b_range c s gc : Inv c s -> owns_b (s_map s gc) = true -> gc < c_nclu c.
Proof.
  intros I O. destruct (N.lt_ge_cases gc (c_nclu c)) as [H|H]; [exact H|].
  rewrite (inv_out c s I gc H) in O. discriminate O.
Qed.

(* read off the definition, case by case: a guest cluster that owns a host cluster h gives it up and is left without
   a mapping, in the form that reads as zeros; except that a version 2 image with a backing file has no such form:
   there a data cluster keeps h, filled with zeros *)
Lemma discard_cluster_shape c s gc :
  let s' := discard_cluster c s gc in
  if owns_b (s_map s gc) then
    exists h, owns (s_map s gc) h /\
      (forall g, g <> gc -> s_map s' g = s_map s g) /\ s_meta s' = s_meta s /\
      (s_map s' gc = CData h /\ s_rc s' = s_rc s /\ s_host s' = upd (s_host s) h (fun _ => 0) \/
       s_map s' gc = (if c_backing c then CZero else CUn) /\ s_rc s' = upd (s_rc s) h (s_rc s h - 1) /\
       s_host s' = s_host s)
  else s' = s.
Proof.
  unfold discard_cluster. destruct (s_map s gc) as [| |h|h|] eqn:M; cbn [owns_b]; try reflexivity;
    exists h; (split; [first [left; reflexivity|right; reflexivity]|]);
    destruct (c_backing c); try destruct (c_v2 c); cbn [s_map s_rc s_meta s_host];
    (split; [intros g Hg; first [apply upd_other; exact Hg|reflexivity]|]); (split; [reflexivity|]);
    first [left; split; [exact M|]; split; reflexivity|right; split; [apply upd_same|]; split; reflexivity].
Qed.

Lemma discard_cluster_noop c s gc : owns_b (s_map s gc) = false -> discard_cluster c s gc = s.
Proof. intros O. pose proof (discard_cluster_shape c s gc) as Sh. rewrite O in Sh. exact Sh. Qed.

Lemma discard_cluster_map_other c s gc g : g <> gc -> s_map (discard_cluster c s gc) g = s_map s g.
Proof.
  intros H. pose proof (discard_cluster_shape c s gc) as Sh. destruct (owns_b (s_map s gc)); [|rewrite Sh; reflexivity].
  destruct Sh as (h & _ & Mo & _). exact (Mo g H).
Qed.

Lemma discard_cluster_remaps c s gc :
  Inv c s -> gc < c_nclu c -> owns_b (s_map s gc) = true -> remaps s (discard_cluster c s gc) gc.
Proof.
  intros I Hgc Ob. pose proof (discard_cluster_shape c s gc) as Sh. rewrite Ob in Sh.
  destruct Sh as (h & O & Mo & Me & [(Mg & Rc & Hh)|(Mg & Rc & Hh)]);
    (constructor; [exact Mo|exact Me| | |]); intros h'; rewrite ?Mg, ?Rc, ?Hh, ?(touches_owns _ _ h' O).
  (* gc keeps h: the references stay, data changes in h alone *)
  - reflexivity.
  - intros ->%N.eqb_eq. left. exact O.
  - destruct (N.eq_dec h' h) as [->|Hne]; [left; left; exact O|right; apply upd_other; exact Hne].
  (* gc gives h up: the one reference h had was gc's *)
  - replace (touches (if c_backing c then CZero else CUn) h') with false by (destruct (c_backing c); reflexivity).
    unfold upd. destruct (N.eqb_spec h' h) as [->|_]; [|reflexivity]. rewrite (inv_one c s I gc h Hgc O). reflexivity.
  - destruct (c_backing c); discriminate.
  - right. reflexivity.
Qed.

Lemma discard_cluster_ok c s gc :
  Inv c s ->
  Inv c (discard_cluster c s gc) /\
  forall b, read_block c (discard_cluster c s gc) b =
            if (b / c_bpc c =? gc) && owns_b (s_map s gc) then 0 else read_block c s b.
Proof.
  intros I. destruct (owns_b (s_map s gc)) eqn:O.
  2: { rewrite (discard_cluster_noop c s gc O). split; [exact I|]. intros b. rewrite andb_false_r. reflexivity. }
  pose proof (owns_b_range c s gc I O) as Hgc. pose proof (discard_cluster_remaps c s gc I Hgc O) as R.
  split; [exact (remap_inv c s _ gc I Hgc R)|].
  intros b. destruct (N.eqb_spec (b / c_bpc c) gc) as [E|E]; cbn [andb]; [|exact (read_frame c s _ gc b I Hgc R E)].
  pose proof (discard_cluster_shape c s gc) as Sh. rewrite O in Sh. unfold read_block. rewrite E.
  destruct Sh as (h & _ & _ & _ & [(-> & _ & ->)|(-> & _)]).
  - rewrite upd_same. reflexivity.
  - destruct (c_backing c); reflexivity.
Qed.

Lemma discard_list c l : forall s,
  Inv c s ->
  Inv c (fold_left (discard_cluster c) l s) /\
  forall b, read_block c (fold_left (discard_cluster c) l s) b =
            if existsb (N.eqb (b / c_bpc c)) l && owns_b (s_map s (b / c_bpc c)) then 0 else read_block c s b.
Proof.
  induction l as [|gc r IH]; intros s I; cbn [fold_left].
  - split; [exact I|reflexivity].
  - destruct (discard_cluster_ok c s gc I) as [I1 R1]. destruct (IH (discard_cluster c s gc) I1) as [I' R].
    split; [exact I'|].
    intros b. rewrite R, R1. cbn [existsb].
    destruct (N.eqb_spec (b / c_bpc c) gc) as [->|E]; cbn [orb andb].
    + (* a cluster met again owns nothing any more, or was zeroed in place *)
      destruct (owns_b (s_map s gc)) eqn:O.
      * destruct (_ && _); reflexivity.
      * rewrite (discard_cluster_noop c s gc O), O, andb_false_r. reflexivity.
    + rewrite (discard_cluster_map_other c s gc _ E). destruct (_ && _); reflexivity.
Qed.

Definition in_discard (c : cfg) (off len g : N) : bool :=
  let '(start, stop) := discard_range c off len in negb (len =? 0) && (start <=? g) && (g <? stop).

(* the guest clusters a discard releases; the guard of `discard` on an empty range is redundant *)
Definition discard_clusters (c : cfg) (off len : N) : list N :=
  let '(start, stop) := discard_range c off len in
  if len =? 0 then [] else seqN start (N.to_nat (stop - start)).

Lemma discard_fold c s off len :
  discard c s off len = fold_left (discard_cluster c) (discard_clusters c off len) s.
Proof.
  unfold discard, discard_clusters. destruct (discard_range c off len) as [start stop].
  destruct (len =? 0); [reflexivity|]. cbn [orb]. destruct (N.leb_spec stop start) as [L|L]; [|reflexivity].
  replace (stop - start) with 0 by lia. reflexivity.
Qed.

Lemma in_discard_clusters c off len g :
  existsb (N.eqb g) (discard_clusters c off len) = in_discard c off len g.
Proof.
  unfold discard_clusters, in_discard. destruct (discard_range c off len) as [start stop].
  destruct (len =? 0); [reflexivity|]. rewrite existsb_seqN. cbn [negb andb].
  apply eq_true_iff_eq. rewrite !andb_true_iff, !N.leb_le, !N.ltb_lt. lia.
Qed.

(* discard zeroes exactly the whole clusters inside the clipped range that own an uncompressed host
   cluster; every other block is unchanged (C11) *)
Theorem discard_ok c s off len :
  Inv c s ->
  Inv c (discard c s off len) /\
  forall b, read_block c (discard c s off len) b =
            if in_discard c off len (b / c_bpc c) && owns_b (s_map s (b / c_bpc c)) then 0 else read_block c s b.
Proof.
  intros I. rewrite discard_fold. destruct (discard_list c (discard_clusters c off len) s I) as [I' R].
  split; [exact I'|]. intros b. rewrite <- in_discard_clusters. apply R.
Qed.

Lemma grow_inv c s h s' : Inv c s -> grow s h = Some s' -> Inv c s'.
Proof.
  intros I G. unfold grow in G. destruct (free s h) eqn:F; [|discriminate]. injection G as <-.
  apply free_spec in F as [F1 F2]. constructor.
  - intros h'. cbn [s_rc]. unfold drefs. cbn [s_map s_meta]. pose proof (inv_rc c s I h') as R. unfold drefs in R.
    destruct (N.eq_dec h' h) as [->|Hne].
    + rewrite !upd_same. rewrite F2 in R. lia.
    + rewrite !upd_other by exact Hne. exact R.
  - intros g h' Hg O. cbn [s_map s_rc] in *. rewrite upd_other; [exact (inv_one c s I g h' Hg O)|].
    intros ->. rewrite (inv_one c s I g h Hg O) in F1. discriminate.
  - exact (inv_out c s I).
Qed.

Lemma grow_read c s h s' : grow s h = Some s' -> forall b, read_block c s' b = read_block c s b.
Proof. unfold grow. destruct (free s h); [|discriminate]. intros E b. injection E as <-. reflexivity. Qed.

Definition op_ok (c : cfg) (o : op) : Prop :=
  match o with
  | OWrite off len _ _ => off + len <= c_vblocks c
  | _ => True
  end.

Definition cfg_ok (c : cfg) : Prop := 0 < c_bpc c /\ c_vblocks c <= c_nclu c * c_bpc c.

(* the flat-disk view of one step *)
Definition flat_step (c : cfg) (s : st) (o : op) (f : N -> N) : N -> N :=
  match o with
  | OWrite off len v _ => fun b => if inr off len b then v b else f b
  | ODiscard off len => fun b => if in_discard c off len (b / c_bpc c) && owns_b (s_map s (b / c_bpc c)) then 0 else f b
  | OGrow _ => f
  end.

Lemma step_ok c s o s' :
  cfg_ok c -> Inv c s -> op_ok c o -> step c s o = Some s' ->
  Inv c s' /\ forall b, read_block c s' b = flat_step c s o (read_block c s) b.
Proof.
  intros [Hb Hv] I Hok S. destruct o as [off len v ch|off len|h]; cbn [step op_ok flat_step] in *.
  - apply (write_ok c s off len v ch s' I Hb); [lia|exact S].
  - injection S as <-. exact (discard_ok c s off len I).
  - split; [exact (grow_inv c s h s' I S)|exact (grow_read c s h s' S)].
Qed.

Theorem step_read c s o s' :
  cfg_ok c -> Inv c s -> op_ok c o -> step c s o = Some s' ->
  forall b, read_block c s' b = flat_step c s o (read_block c s) b.
Proof. intros C I Hok S. apply (step_ok c s o s' C I Hok S). Qed.

Fixpoint flat_run (c : cfg) (s : st) (ops : list op) (f : N -> N) : N -> N :=
  match ops with
  | [] => f
  | o :: r => match step c s o with
              | Some s' => flat_run c s' r (flat_step c s o f)
              | None => f
              end
  end.

Lemma flat_step_ext c s o f g b : f b = g b -> flat_step c s o f b = flat_step c s o g b.
Proof. intros E. destruct o; cbn [flat_step]; rewrite ?E; reflexivity. Qed.

Lemma flat_run_ext c ops : forall s f g, (forall b, f b = g b) -> forall b, flat_run c s ops f b = flat_run c s ops g b.
Proof.
  induction ops as [|o r IH]; intros s f g E b; cbn [flat_run]; [apply E|].
  destruct (step c s o) as [s1|]; [|apply E].
  apply IH. intros b'. apply flat_step_ext. apply E.
Qed.

Lemma run_ok c ops : forall s s',
  cfg_ok c -> Inv c s -> Forall (op_ok c) ops -> run c s ops = Some s' ->
  Inv c s' /\ forall b, read_block c s' b = flat_run c s ops (read_block c s) b.
Proof.
  induction ops as [|o r IH]; intros s s' C I HF R; cbn [run flat_run] in *.
  - injection R as <-. split; [exact I|reflexivity].
  - destruct (step c s o) as [s1|] eqn:S; [|discriminate]. inversion HF as [|? ? Ho HF']; subst.
    destruct (step_ok c s o s1 C I Ho S) as [I1 R1]. destruct (IH s1 s' C I1 HF' R) as [I' R']. split; [exact I'|].
    intros b. rewrite R'. apply flat_run_ext. exact R1.
Qed.

(* every state reachable from a state satisfying the invariant satisfies it: refcounts equal the number
   of references, every uncompressed guest cluster is the only owner of its host cluster (C08) *)
Theorem run_inv c ops : forall s s', cfg_ok c -> Inv c s -> Forall (op_ok c) ops -> run c s ops = Some s' -> Inv c s'.
Proof. intros s s' C I HF R. apply (run_ok c ops s s' C I HF R). Qed.

Theorem run_read c ops : forall s s',
  cfg_ok c -> Inv c s -> Forall (op_ok c) ops -> run c s ops = Some s' ->
  forall b, read_block c s' b = flat_run c s ops (read_block c s) b.
Proof. intros s s' C I HF R. apply (run_ok c ops s s' C I HF R). Qed.

Lemma inv_fresh c (meta : N -> bool) :
  Inv c {| s_map := fun _ => CUn; s_rc := fun h => if meta h then 1 else 0; s_meta := meta; s_host := fun _ _ => 0 |}.
Proof.
  constructor.
  - intros h. unfold drefs. cbn [s_map s_rc s_meta]. rewrite cntb_false by reflexivity. lia.
  - intros g h _ [E|E]; discriminate.
  - reflexivity.
Qed.

Lemma nthN_default {A} (l : list A) d i : N.of_nat (length l) <= i -> nthN l d i = d.
Proof. intros H. unfold nthN. apply nth_overflow. lia. Qed.

Lemma nthN_In {A} (l : list A) d i : i < N.of_nat (length l) -> In (nthN l d i) l.
Proof. intros H. unfold nthN. apply nth_In. lia. Qed.

Lemma bound_ok_untouched H x h : bound_ok H x = true -> H <= h -> touches x h = false.
Proof.
  intros B Hh. destruct x as [| |h'|h'|h0 k]; cbn [bound_ok touches] in *; try reflexivity.
  1, 2: apply N.ltb_lt in B; apply N.eqb_neq; lia.
  - apply N.leb_le in B. destruct (N.leb_spec h0 h), (N.ltb_spec h (h0 + k)); cbn [andb]; try reflexivity; lia.
Qed.

Theorem invb_sound c maps rcs metas host :
  invb c maps rcs metas = true -> Inv c (mk_state maps rcs metas host).
Proof.
  unfold invb. intros [[[[B1%N.leb_le B2%N.leb_le]%andb_prop B3]%andb_prop B4]%andb_prop B5]%andb_prop.
  rewrite forallb_forall in B3, B4, B5.
  set (H := N.of_nat (length rcs)) in *.
  assert (T : forall gc h, H <= h -> touches (nthN maps CUn gc) h = false).
  { intros gc h Hh. destruct (N.lt_ge_cases gc (N.of_nat (length maps))) as [L|G].
    - apply (bound_ok_untouched H); [apply B3; apply nthN_In; exact L|exact Hh].
    - rewrite nthN_default by exact G. reflexivity. }
  constructor.
  - intros h. cbn [mk_state s_rc]. destruct (N.lt_ge_cases h H) as [L|G].
    + apply N.eqb_eq, B4, seqN_In. unfold H in L. lia.
    + rewrite nthN_default by exact G. unfold drefs. cbn [mk_state s_map s_meta].
      rewrite cntb_false by (intros i; apply T; exact G). rewrite nthN_default by lia. reflexivity.
  - intros gc h Hgc O. specialize (B5 gc ltac:(apply seqN_In; rewrite N2Nat.id; lia)).
    unfold one_ok in B5. cbn [mk_state s_map s_rc] in *. destruct O as [E|E]; rewrite E in B5; apply N.eqb_eq, B5.
  - intros gc Hgc. cbn [mk_state s_map]. apply nthN_default. lia.
Qed.
