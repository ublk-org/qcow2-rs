(* Properties of the slice-cache model (Model/Cache.v): an entry that a user holds is never evicted,
   whatever victims the step is given; keys stay unique; after an accepted load the cache is within its
   limit unless every remaining entry is in use. *)
From Coq Require Import NArith List Bool Lia.
From Q.Model Require Import Cache.
Import ListNotations.
Open Scope N_scope.

Definition held_in (l : list ent) (k : N) : Prop := exists e, In e l /\ e_key e = k /\ e_hold e <> 0.
Definition has_in (l : list ent) (k : N) : Prop := exists e, In e l /\ e_key e = k.

Definition uniq (l : list ent) : Prop := NoDup (map e_key l).

Lemma held_has l k : held_in l k -> has_in l k.
Proof. intros [e [Hin [Hk _]]]. exists e. auto. Qed.

Lemma has_in_keys l k : has_in l k <-> In k (map e_key l).
Proof. unfold has_in. rewrite in_map_iff. split; intros [e [H1 H2]]; exists e; auto. Qed.

Lemma has_spec s k : has s k = true <-> has_in (c_ents s) k.
Proof. unfold has, has_in. rewrite existsb_exists. setoid_rewrite N.eqb_eq. reflexivity. Qed.

Lemma uniq_same_key l e1 e2 : uniq l -> In e1 l -> In e2 l -> e_key e1 = e_key e2 -> e1 = e2.
Proof.
  intros U H1 H2 Hk. apply in_split in H1 as [l1 [l2 ->]]. apply in_elt_inv in H2 as [H2|H2]; [auto|].
  unfold uniq in U. rewrite map_app in U. apply NoDup_remove_2 in U.
  exfalso. apply U. rewrite <- map_app, Hk. apply in_map, H2.
Qed.

Lemma uniq_filter l f : uniq l -> uniq (filter f l).
Proof.
  unfold uniq. induction l as [|a l IH]; cbn [filter map]; intros U; [exact U|].
  apply NoDup_cons_iff in U as [Hn U]. destruct (f a); [|auto]. constructor; [|auto].
  intros Hin. apply Hn. exact (incl_map e_key (incl_filter f l) _ Hin).
Qed.

(* A step that keeps the list of keys keeps their uniqueness and everything cached.  CHold, CRelease, CDirty,
   CGet and the reference counting of a load that hits are such steps: they change entries in place by
   functions that keep the key. *)
Lemma same_keys_has l l' k : map e_key l' = map e_key l -> has_in l k -> has_in l' k.
Proof. intros E H. apply has_in_keys. rewrite E. apply has_in_keys, H. Qed.

Lemma same_keys_keeps l l' :
  map e_key l' = map e_key l -> uniq l -> uniq l' /\ forall k, held_in l k -> has_in l' k.
Proof.
  unfold uniq. intros E U. rewrite E. split; [exact U|]. intros k H. apply (same_keys_has l), held_has, H. exact E.
Qed.

Lemma upd_keys k f l : (forall e, e_key (f e) = e_key e) ->
  map e_key (map (fun e => if e_key e =? k then f e else e) l) = map e_key l.
Proof. intros H. rewrite map_map. apply map_ext. intros e. destruct (e_key e =? k); auto. Qed.

Lemma touch_keys s k f : (forall e, e_key (f e) = e_key e) -> map e_key (c_ents (touch s k f)) = map e_key (c_ents s).
Proof. intros H. unfold touch. destruct (has s k); [|reflexivity]. apply upd_keys. intros e. rewrite H. reflexivity. Qed.

Lemma remove_key_keeps l k e : In e l -> e_key e <> k -> In e (remove_key l k).
Proof. intros H Hk. apply filter_In. split; [exact H|]. apply negb_true_iff, N.eqb_neq, Hk. Qed.

Lemma evictable_unused l k : evictable l k = true -> exists e, In e l /\ e_key e = k /\ e_hold e = 0.
Proof.
  unfold evictable. destruct (List.find _ l) as [e|] eqn:F; [|discriminate].
  intros H. apply andb_prop in H as [H0 _]. apply find_some in F as [Hin Hk].
  exists e. split; [exact Hin|]. split; apply N.eqb_eq; assumption.
Qed.

(* with no victims left the fuel does not matter: the stopping test decides *)
Lemma evict_n_stop n l limit w l' : evict_n n l limit w [] = Some l' ->
  l' = l /\ (N.of_nat (length l) + w <= limit \/ forall e, In e l -> e_hold e <> 0).
Proof.
  replace (evict_n n l limit w []) with (evict_n 0 l limit w []) by (destruct n; reflexivity). cbn [evict_n].
  destruct (_ || _) eqn:C; [|discriminate]. intros [= <-]. split; [reflexivity|].
  apply orb_prop in C as [C|C]; [left; apply N.leb_le, C|right].
  intros e He. rewrite forallb_forall in C. apply C in He. apply negb_true_iff, N.eqb_neq in He. exact He.
Qed.

(* `evict` is `evict_n` with the number of victims as fuel, so this is also the statement about `evict` *)
Lemma evict_n_keeps_held n : forall l limit w evs l',
  uniq l -> evict_n n l limit w evs = Some l' ->
  uniq l' /\ (forall k, held_in l k -> held_in l' k) /\ incl l' l /\
  (N.of_nat (length l') + w <= limit \/ forall e, In e l' -> e_hold e <> 0).
Proof.
  induction n as [|n IH]; intros l limit w [|x evs] l' U E.
  1, 3: apply evict_n_stop in E as [-> B]; auto using incl_refl.
  - discriminate.
  - cbn [evict_n] in E. destruct (List.find _ _) as [k|] eqn:F; [|discriminate].
    destruct (limit <? _); [|discriminate].
    apply find_some in F as [_ Ev]. apply evictable_unused in Ev as [ek [Hin [Hk H0]]].
    apply IH in E as [U' [K [Sub B]]]; [|apply uniq_filter, U].
    split; [exact U'|]. split; [|split; [exact (incl_tran Sub (incl_filter _ l))|exact B]].
    intros k' [e [He [Hke Hh]]]. apply K. exists e. split; [|auto]. apply remove_key_keeps; [exact He|].
    (* the victim is the only entry with key k, and it is unused *)
    intros Hk'. apply Hh. rewrite (uniq_same_key l e ek U He Hin) by congruence. exact H0.
Qed.

(* An accepted load is an eviction between two changes that evict nothing: a hit gives k one more reference before
   (the loader's) and takes it back after, a miss appends the new entry to what eviction left.  So what was held
   stays cached, and the cache ends within its limit or with every entry but the loaded one in use (on a hit too;
   C06_cache_bound states it for a miss). *)
Theorem load_accepted s k evs s' :
  uniq (c_ents s) -> cstep s (CLoad k evs) = Some s' ->
  uniq (c_ents s') /\ (forall k', held_in (c_ents s) k' -> has_in (c_ents s') k') /\
  (len s' <= c_limit s \/ forall e, In e (c_ents s') -> e_key e <> k -> e_hold e <> 0).
Proof.
  intros U S. cbn [cstep] in S. unfold len. destruct (has s k) eqn:H.
  - cbv zeta in S. destruct (evict _ _ _ _) as [l|] eqn:E; [|discriminate]. injection S as <-. cbn [c_ents].
    apply evict_n_keeps_held in E as [U1 [K [_ B]]]; [|unfold uniq; rewrite upd_keys; auto].
    split; [unfold uniq; rewrite upd_keys; auto|]. split.
    + (* eviction ran on the entries with one more reference on k, so whatever was held still was *)
      intros k' [e [Hin [Hk Hh]]]. apply (same_keys_has l); [apply upd_keys; auto|]. apply held_has, K.
      eexists. split; [apply in_map, Hin|]. cbv beta. destruct (e_key e =? k); cbn [e_key e_hold]; split; auto. lia.
    + rewrite map_length. destruct B as [B|B]; [left; lia|right].
      intros e He Hk. apply in_map_iff in He as [e0 [<- He]].
      destruct (N.eqb_spec (e_key e0) k); [contradiction|exact (B e0 He)].
  - destruct (evict _ _ _ _) as [l|] eqn:E; [|discriminate]. injection S as <-. cbn [c_ents].
    apply evict_n_keeps_held in E as [U1 [K [Sub B]]]; [|exact U]. split; [|split].
    + unfold uniq. rewrite map_app. apply (NoDup_Add (Add_app k _ [])). rewrite app_nil_r. split; [exact U1|].
      (* k was not cached, and eviction adds nothing *)
      intros Hx. apply has_in_keys in Hx as [e [He Hk]]. apply Sub in He.
      rewrite (proj2 (has_spec s k)) in H by (exists e; auto). discriminate.
    + intros k' Hh. apply K, held_has in Hh as [e [Hin Hk]]. exists e. auto using in_or_app.
    + rewrite app_length, Nat2N.inj_add. cbn [length]. destruct B as [B|B]; [left; lia|right].
      intros e He Hk. apply in_app_or in He as [He|[<-|[]]]; [exact (B e He)|]. cbn [e_key] in Hk. contradiction.
Qed.

(* the main statement: whatever the step and whatever victims it is given, an entry that is held before the
   step is still cached after it, and keys stay unique *)
Theorem cstep_keeps_held s o s' :
  uniq (c_ents s) -> cstep s o = Some s' ->
  uniq (c_ents s') /\ forall k, held_in (c_ents s) k -> has_in (c_ents s') k.
Proof.
  intros U S. destruct o as [k evs|k|k|k|k|].
  - destruct (load_accepted s k evs s' U S) as [U' [K _]]. auto.
  - injection S as <-. apply same_keys_keeps; [apply touch_keys; reflexivity|exact U].
  - injection S as <-. apply same_keys_keeps; [apply upd_keys; reflexivity|exact U].
  - injection S as <-. apply same_keys_keeps; [apply touch_keys; reflexivity|exact U].
  - injection S as <-. apply same_keys_keeps; [apply touch_keys; reflexivity|exact U].
  - injection S as <-. cbn [c_ents]. split; [apply uniq_filter, U|].
    intros k' [e [Hin [Hk Hh]]]. exists e. split; [|exact Hk]. apply filter_In. split; [exact Hin|].
    unfold unused. apply N.eqb_neq in Hh. rewrite Hh. reflexivity.
Qed.

(* dirty victims are handed back for write-back: `returned` is exactly the dirty part of the victims *)
Theorem returned_spec s k0 evs k :
  In k (returned s (CLoad k0 evs)) <-> In k evs /\ exists e, find s k = Some e /\ e_dirty e = true.
Proof.
  cbn [returned]. rewrite filter_In. split.
  - intros [Hin Hd]. split; [exact Hin|]. destruct (find s k) as [e|]; [|discriminate]. exists e. split; [reflexivity|exact Hd].
  - intros [Hin [e [F D]]]. split; [exact Hin|]. rewrite F. exact D.
Qed.
