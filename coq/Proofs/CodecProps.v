(* C15, model side: the hand model of the codec layer (Model/Codec.v) agrees with the
   specification's bit layout (Spec/Entries.v), and encoding/decoding are mutually inverse. *)
From Coq Require Import NArith List Bool Lia.
From Q.Base Require Import Bits.
From Q.Spec Require Import Entries.
From Q.Model Require Import Codec.
From Q.Proofs Require Import Geometry.
Open Scope N_scope.

Lemma bits_lt v lo n : bits v lo n < 2 ^ n.
Proof. apply mod_pow2_lt. Qed.

Lemma bit_testbit v k : bit v k = N.testbit v k.
Proof.
  unfold bit, bits. change (2 ^ 1) with 2. rewrite N.testbit_eqb.
  pose proof (N.mod_lt (v / 2 ^ k) 2 ltac:(discriminate)).
  destruct ((v / 2 ^ k) mod 2) as [|[| |]]; try reflexivity; lia.
Qed.

Lemma bits_low v n : bits v 0 n = v mod 2 ^ n.
Proof. unfold bits. change (2 ^ 0) with 1. rewrite N.div_1_r. reflexivity. Qed.

(* a field put back in place keeps bits lo .. lo+n-1 of v *)
Lemma testbit_field v lo n k : N.testbit (bits v lo n * 2 ^ lo) k = (lo <=? k) && (k <? lo + n) && N.testbit v k.
Proof.
  unfold bits. rewrite testbit_mul_pow2, testbit_mod_pow2, N.div_pow2_bits. destruct (N.leb_spec lo k); [|reflexivity].
  rewrite N.sub_add by assumption. cbn [andb]. f_equal.
  destruct (N.ltb_spec (k - lo) n), (N.ltb_spec k (lo + n)); (reflexivity || lia).
Qed.

(* the masks of the code in the specification's terms: a flag, a field in place *)
Lemma flag_test v k : negb (N.land v (N.shiftl 1 k) =? 0) = bit v k.
Proof. rewrite shiftl_1, land_bit_ne0, bit_testbit. reflexivity. Qed.

Lemma land_range_bits v lo hi : lo <= hi -> N.land v (2 ^ hi - 2 ^ lo) = bits v lo (hi - lo) * 2 ^ lo.
Proof. apply land_range. Qed.

(* a mask of two ranges is clear exactly when both fields are zero: the reserved bits of L1 and standard L2 entries *)
Lemma land_ranges_eq0 v a b c d : a <= b -> c <= d ->
  N.land v (N.lor (2 ^ b - 2 ^ a) (2 ^ d - 2 ^ c)) = 0 <-> bits v a (b - a) = 0 /\ bits v c (d - c) = 0.
Proof.
  intros. rewrite N.land_lor_distr_r, N.lor_eq_0_iff, !land_range_bits, !mul_pow2_eq0 by assumption. reflexivity.
Qed.

Theorem l1_offset_spec v : l1_l2_offset v = s_l1_offset v.
Proof.
  unfold l1_l2_offset, OFF_MASK. change 0x00fffffffffffe00 with (2 ^ 56 - 2 ^ 9).
  apply (land_range_bits v 9 56). discriminate.
Qed.

Theorem l1_copied_spec v : l1_is_copied v = s_l1_copied v.
Proof. apply flag_test. Qed.

Theorem l1_reserved_spec v : v < 2 ^ 64 ->
  (l1_reserved_bits v = 0 <-> bits v 1 8 = 0 /\ bits v 56 7 = 0).
Proof.
  intros _. unfold l1_reserved_bits.
  change 0x7f000000000001fe with (N.lor (2 ^ 9 - 2 ^ 1) (2 ^ 63 - 2 ^ 56)).
  apply (land_ranges_eq0 v 1 9 56 63); discriminate.
Qed.

Theorem rt_offset_spec v : rt_refblock_offset v = s_rt_offset v.
Proof.
  unfold rt_refblock_offset. change 0xfffffffffffffe00 with (2 ^ 64 - 2 ^ 9).
  apply (land_range_bits v 9 64). discriminate.
Qed.

Theorem rt_reserved_spec v : rt_reserved_bits v = s_rt_reserved v.
Proof. unfold rt_reserved_bits, s_rt_reserved. rewrite bits_low. change 0x1ff with (2 ^ 9 - 1). apply land_pow2m1. Qed.

Theorem l2_offset_spec v : l2_cluster_offset v = s_l2_offset v.
Proof. apply l1_offset_spec. Qed.

Theorem l2_compressed_spec v : l2_is_compressed v = s_l2_compressed v.
Proof. apply flag_test. Qed.

Theorem l2_copied_spec v : l2_is_copied v = s_l2_copied v.
Proof. apply flag_test. Qed.

Theorem l2_zero_spec v : l2_is_zero v = s_l2_zero v.
Proof. apply flag_test. Qed.

Theorem l2_compressed_range_spec cb v :
  l2_compressed_range cb v =
  if s_l2_compressed v then Some (s_l2_coffset cb v, s_l2_clength cb v) else None.
Proof.
  unfold l2_compressed_range. rewrite l2_compressed_spec.
  destruct (s_l2_compressed v); [|reflexivity].
  unfold l2_compressed_descriptor, s_l2_clength, s_l2_coffset, s_l2_csectors, s_x. rewrite bits_low. unfold bits.
  set (x := 62 - (cb - 8)) in *.
  change 0x3fffffffffffffff with (2 ^ 62 - 1). change 0x00ffffffffffffff with (2 ^ 56 - 1).
  rewrite shiftl_1, (pow2_mod_small x 64) by lia.
  rewrite !land_pow2m1. change 511 with (2 ^ 9 - 1). rewrite land_pow2m1, N.shiftr_div_pow2.
  rewrite (mod_pow2_min v 62 x), (N.min_r 62 x) by lia.
  rewrite (mod_pow2_min v x 56).
  rewrite (mod_div_pow2 v 62 x) by lia.
  change 512 with (2 ^ 9).
  reflexivity.
Qed.

Definition kind_of_src (s : N) : kind :=
  if s =? SRC_DATA then KData else if s =? SRC_BACKING then KBacking
  else if s =? SRC_ZERO then KZero else if s =? SRC_COMPRESSED then KCompressed else KUnalloc.

Definition dec_of_mapping (m : mapping) : decoded :=
  {| d_kind := kind_of_src (m_source m); d_off := m_offset m; d_len := m_clen m; d_copied := m_copied m |}.

Lemma bit_bits v k : bit v k = negb (bits v k 1 =? 0).
Proof. reflexivity. Qed.

(* what validity says of a standard and of a compressed entry *)
Lemma valid_std cb v : s_l2_valid cb v = true -> s_l2_compressed v = false ->
  v < 2 ^ 64 /\ (bits v 1 8 = 0 /\ bits v 56 6 = 0) /\ s_l2_offset v mod 2 ^ cb = 0 /\
  (s_l2_copied v = true -> s_l2_offset v <> 0).
Proof.
  intros Hv Ec. unfold s_l2_valid in Hv. rewrite Ec in Hv.
  apply andb_prop in Hv as [Hlt%N.ltb_lt [[[R1%N.eqb_eq R2%N.eqb_eq]%andb_prop Ha%N.eqb_eq]%andb_prop Hc]%andb_prop].
  repeat split; try assumption. intros C E. rewrite C, E in Hc. discriminate Hc.
Qed.

Lemma valid_compressed cb v : s_l2_valid cb v = true -> s_l2_compressed v = true ->
  v < 2 ^ 64 /\ s_l2_copied v = false /\ bits v 56 (s_x cb - 56) = 0.
Proof.
  intros Hv Ec. unfold s_l2_valid in Hv. rewrite Ec in Hv.
  apply andb_prop in Hv as [Hlt%N.ltb_lt [Hc%negb_true_iff Hhi%N.eqb_eq]%andb_prop]. auto.
Qed.

Theorem into_mapping_spec i v g cb : cluster_shift i = cb -> s_l2_valid cb v = true ->
  dec_of_mapping (l2_into_mapping i v g)
  = s_l2_decode cb (has_back_file i) (sg_cluster_offset i g) v.
Proof.
  intros Hcs Hv. unfold l2_into_mapping, s_l2_decode. rewrite Hcs, l2_compressed_range_spec.
  destruct (s_l2_compressed v) eqn:Ec; [reflexivity|].
  rewrite l2_zero_spec, l2_offset_spec, l2_copied_spec.
  destruct (s_l2_zero v).
  - destruct (s_l2_offset v =? 0); reflexivity.
  - destruct (N.eqb_spec (s_l2_offset v) 0) as [E0|E0]; [|reflexivity].
    (* offset 0: validity excludes the COPIED bit *)
    destruct (valid_std cb v Hv Ec) as (_ & _ & _ & Hcop).
    destruct (s_l2_copied v); [destruct (Hcop eq_refl E0)|]. cbn [orb].
    destruct (has_back_file i); reflexivity.
Qed.

Lemma valid_reserved_zero cb v : s_l2_valid cb v = true -> l2_reserved_bits v = 0.
Proof.
  intros Hv. unfold l2_reserved_bits. rewrite l2_compressed_spec.
  destruct (s_l2_compressed v) eqn:Ec.
  - destruct (valid_compressed cb v Hv Ec) as (_ & Hc & _). unfold s_l2_copied in Hc.
    change 0x8000000000000000 with (2 ^ 63). rewrite land_bit, <- bit_testbit, Hc. reflexivity.
  - destruct (valid_std cb v Hv Ec) as (_ & Hr & _).
    change 0x3f000000000001fe with (N.lor (2 ^ 9 - 2 ^ 1) (2 ^ 62 - 2 ^ 56)).
    apply (land_ranges_eq0 v 1 9 56 62); [discriminate|discriminate|exact Hr].
Qed.

(* a flag bit, as the mask test of the code reads it *)
Lemma flag_land v k : N.land v (2 ^ k) = if negb (N.land v (N.shiftl 1 k) =? 0) then 2 ^ k else 0.
Proof. rewrite shiftl_1, land_bit_ne0. apply land_bit. Qed.

(* a valid standard entry is the or of COPIED, the offset and the zero flag: every other bit is reserved *)
Lemma std_parts cb v : s_l2_valid cb v = true -> s_l2_compressed v = false ->
  N.lor (N.lor (N.land v (2 ^ 63)) (l2_cluster_offset v)) (N.land v (2 ^ 0)) = v.
Proof.
  intros Hv Ec. pose proof (valid_reserved_zero cb v Hv) as Hr.
  unfold l2_reserved_bits in Hr. rewrite l2_compressed_spec, Ec in Hr.
  assert (H62 : N.land v (2 ^ 62) = 0) by (rewrite flag_land; fold (l2_is_compressed v); rewrite l2_compressed_spec, Ec; reflexivity).
  destruct (valid_std cb v Hv Ec) as (Hlt & _).
  rewrite <- (N.mod_small v _ Hlt) at 4. rewrite <- land_pow2m1.
  change (2 ^ 64 - 1) with (N.lor (N.lor (N.lor (N.lor (2 ^ 63) OFF_MASK) (2 ^ 0)) 0x3f000000000001fe) (2 ^ 62)).
  rewrite !N.land_lor_distr_r, Hr, H62, !N.lor_0_r. reflexivity.
Qed.

Theorem roundtrip_std i v g cb : s_l2_valid cb v = true -> s_l2_compressed v = false ->
  l2_from_mapping cb (l2_into_mapping i v g) = v.
Proof.
  intros Hv Ec. rewrite <- (std_parts cb v Hv Ec) at 2.
  rewrite !flag_land. fold (l2_is_copied v) (l2_is_zero v).
  (* validity: COPIED only with an offset *)
  destruct (valid_std cb v Hv Ec) as (_ & _ & _ & Hcop). rewrite <- l2_copied_spec, <- l2_offset_spec in Hcop.
  unfold l2_into_mapping, l2_compressed_range. rewrite l2_compressed_spec, Ec.
  destruct (l2_is_zero v), (N.eqb_spec (l2_cluster_offset v) 0) as [E0|E0], (l2_is_copied v);
    try destruct (Hcop eq_refl E0); try rewrite E0; try destruct (has_back_file i); cbn; rewrite ?N.lor_0_r; reflexivity.
Qed.

(* from_mapping recomputes the sector count from the byte length into_mapping derived from it *)
Lemma sectors_recomputed s o : ((s + 1) * 512 - o mod 512 - 1 + N.land o 511) / 512 = s.
Proof.
  change 511 with (2 ^ 9 - 1). rewrite land_pow2m1. change (2 ^ 9) with 512.
  pose proof (N.mod_lt o 512 ltac:(discriminate)).
  replace ((s + 1) * 512 - o mod 512 - 1 + o mod 512) with (511 + s * 512) by lia.
  rewrite N.div_add by discriminate. reflexivity.
Qed.

Theorem roundtrip_compressed i v g cb : cluster_shift i = cb ->
  s_l2_valid cb v = true -> s_l2_compressed v = true ->
  l2_from_mapping cb (l2_into_mapping i v g) = v.
Proof.
  intros Hcs Hv Ec. destruct (valid_compressed cb v Hv Ec) as (Hlt & Hc63 & Hhi).
  unfold l2_into_mapping. rewrite Hcs, l2_compressed_range_spec, Ec.
  cbn. unfold s_l2_clength. rewrite sectors_recomputed.
  unfold s_l2_csectors, s_l2_coffset, s_x in *. set (x := 62 - (cb - 8)) in *.
  (* bit by bit: the offset below x (validity wants its bits from 56 on zero), the sectors from x to 61, bit 62 *)
  apply N.bits_inj; intro k.
  rewrite shiftl_1, N.shiftl_mul_pow2, bits_low, !N.lor_spec, N.pow2_bits_eqb, !testbit_mod_pow2, testbit_field.
  unfold s_l2_compressed, s_l2_copied in *. rewrite bit_testbit in *.
  destruct (N.testbit v k) eqn:E.
  - (* a set bit of v is bit 62 or lies in one of the two fields: v has no bit from 63 on and none in 56 .. x-1 *)
    assert (K : k < 63).
    { destruct (N.lt_ge_cases k 64) as [|G]; [|rewrite (testbit_small v 64 k Hlt G) in E; discriminate E].
      assert (k <> 63) by congruence. lia. }
    pose proof (testbit_field v 56 (x - 56) k) as Z. rewrite Hhi, E, N.mul_0_l, N.bits_0 in Z.
    rewrite !andb_true_r. destruct (N.eqb_spec 62 k); [reflexivity|].
    destruct (N.ltb_spec k (N.min x 56)); [apply orb_true_r|]. rewrite orb_false_r.
    destruct (N.leb_spec x k).
    + rewrite (proj2 (N.ltb_lt k (x + (62 - x)))), (proj2 (N.ltb_lt k 64)) by lia. reflexivity.
    + destruct (N.leb_spec 56 k), (N.ltb_spec k (56 + (x - 56))); try lia; discriminate Z.
  - rewrite !andb_false_r, !orb_false_r. apply N.eqb_neq. congruence.
Qed.

(* decoding a valid entry and encoding it again gives back its bits *)
Theorem roundtrip i v g cb : cluster_shift i = cb ->
  s_l2_valid cb v = true -> l2_from_mapping cb (l2_into_mapping i v g) = v.
Proof.
  intros. destruct (s_l2_compressed v) eqn:Ec; [apply roundtrip_compressed|apply roundtrip_std]; assumption.
Qed.

Lemma coffset_lt cb v : s_l2_coffset cb v < 2 ^ 56.
Proof. eapply N.lt_le_trans; [apply bits_lt|apply pow2_le_mono, N.le_min_r]. Qed.

Lemma clength_ge1 cb v : 1 <= s_l2_clength cb v.
Proof.
  unfold s_l2_clength. pose proof (N.mod_lt (s_l2_coffset cb v) 512 ltac:(discriminate)). lia.
Qed.

Lemma csectors_lt cb v : 9 <= cb <= 21 -> s_l2_csectors cb v < 2 ^ (cb - 8).
Proof.
  intros H. unfold s_l2_csectors, s_x. replace (62 - (62 - (cb - 8))) with (cb - 8) by lia. apply bits_lt.
Qed.

Lemma clength_le cb v : 9 <= cb <= 21 -> s_l2_clength cb v <= 2 ^ 23.
Proof.
  intros H. unfold s_l2_clength. pose proof (csectors_lt cb v H).
  pose proof (pow2_le_mono (cb - 8) 13 ltac:(lia)).
  remember (s_l2_csectors cb v) as s. remember (s_l2_coffset cb v mod 512) as x. lia.
Qed.

Lemma into_mapping_pre i v g cb : cluster_shift i = cb -> 9 <= cb <= 21 ->
  s_l2_valid cb v = true -> sg_cluster_offset i g <= 72057594037927935 ->
  from_mapping_pre cb (l2_into_mapping i v g).
Proof.
  intros Hcs Hcb Hv Hg.
  unfold from_mapping_pre. rewrite (roundtrip i v g cb Hcs Hv), (valid_reserved_zero cb v Hv).
  pose proof (land_le_r v OFF_MASK) as Ho. fold (l2_cluster_offset v) in Ho. unfold OFF_MASK in Ho.
  unfold l2_into_mapping. rewrite Hcs, l2_compressed_range_spec.
  destruct (s_l2_compressed v).
  - cbn [m_source m_clen m_copied m_offset]. split; [|split; [reflexivity|]].
    + pose proof (coffset_lt cb v). lia.
    + right; right; right; left. repeat split; try reflexivity.
      eexists _, _. repeat split; try reflexivity; [apply clength_ge1|apply clength_le; assumption|].
      unfold s_l2_clength. rewrite sectors_recomputed. apply csectors_lt, Hcb.
  - destruct (l2_is_zero v), (l2_cluster_offset v =? 0), (l2_is_copied v || has_back_file i);
      cbn [m_source m_clen m_copied m_offset]; (split; [try exact I; lia|split; [reflexivity|]]).
    all: clear; cbn; intuition congruence.
Qed.
