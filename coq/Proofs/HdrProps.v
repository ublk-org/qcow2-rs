(* Bridge from the specification reading of a header to the range hypotheses of the codec / argument-check
   theorems: every header in the supported set (Spec/Image.hdr_features_ok) yields, for every legal choice of device
   parameters, a geometry satisfying info_rng, with a virtual size below 2^63 (the hypotheses of Props/C13.v and
   Props/C15.v). *)
From Coq Require Import NArith Lia.
From Q.Model Require Import Codec.
From Q.Spec Require Import Image.
From Q.Base Require Import Bits.
From Q.Proofs Require Import Geometry SpecProps.
Open Scope N_scope.

(* `(a + p - 1) / p` is a / p rounded up.  The header's size check has this form, p being the bytes one L1 entry maps. *)
Lemma ceil_div_le a p n : 0 < p -> (a + p - 1) / p <= n -> a <= p * n.
Proof.
  intros Pp H. apply (N.mul_le_mono_l _ _ p) in H.
  pose proof (N.mul_succ_div_gt (a + p - 1) p ltac:(lia)). lia.
Qed.

Lemma size_bound h : hdr_features_ok h = true -> h_size h <= 2 ^ 61.
Proof.
  intros H. destruct (features_bounds h H) as [Hcb [_ Hs]].
  apply ceil_div_le in Hs; [|apply pow2_pos]. eapply N.le_trans; [exact Hs|].
  change 4194304 with (2 ^ 22). rewrite <- pow2_split. apply pow2_le_mono. lia.
Qed.

Theorem supported_header_geometry h bs l2sb l2cnt rbsb rbcnt fl :
  hdr_features_ok h = true ->
  9 <= bs <= 12 -> bs <= l2sb <= h_cb h -> bs <= rbsb <= h_cb h ->
  let i := info_of (h_cb h) (h_ro h) (h_size h) bs l2sb l2cnt rbsb rbcnt fl in
  info_rng i /\ virtual_size i <= 2 ^ 63.
Proof.
  intros H Hbs Hl2 Hrb i. destruct (features_bounds h H) as [Hcb [Hro _]].
  pose proof (size_bound h H) as Hs. split.
  - apply info_of_rng. constructor; try assumption.
    eapply N.le_lt_trans; [exact Hs|reflexivity].
  - eapply N.le_trans; [exact Hs|]. apply pow2_le_mono. lia.
Qed.
