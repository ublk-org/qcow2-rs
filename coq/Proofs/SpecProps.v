(* What the executable specification checks (Spec/Image.v validb / safeb) mean for EVERY host cluster, not only
   for the clusters the checker happens to enumerate. *)
From Coq Require Import NArith List Bool Lia ZifyBool.
From Q.Spec Require Import Entries Image.
Open Scope N_scope.

Lemma nrange_In n x : In x (nrange n) <-> x < n.
Proof.
  unfold nrange. set (r := N.iter n _ _).
  (* after k <= n rounds the pair is (n - k, [n - k; ...; n - 1]) *)
  enough (n <= n -> fst r = n - n /\ (In x (snd r) <-> n - n <= x < n)) as H
    by (destruct (H (N.le_refl n)) as [_ ->]; lia).
  subst r. apply (N.iter_ind _ _ _ (fun k p => k <= n -> fst p = n - k /\ (In x (snd p) <-> n - k <= x < n))).
  - intros _. cbn [fst snd In]. lia.
  - intros k p IH Hk. destruct IH as [F I]; [lia|]. cbn [fst snd In]. rewrite F, I. lia.
Qed.

Lemma count_notin c l : ~ In c l -> count c l = 0.
Proof.
  induction l as [|x t IH]; cbn [count]; [reflexivity|]. intros [Hx Ht]%not_in_cons.
  rewrite (IH Ht). destruct (N.eqb_spec x c); [congruence|reflexivity].
Qed.

Lemma features_bounds h :
  hdr_features_ok h = true ->
  9 <= h_cb h <= 21 /\ h_ro h <= 6 /\
  (h_size h + 2 ^ (2 * h_cb h - 3) - 1) / 2 ^ (2 * h_cb h - 3) <= 4194304.
Proof. unfold hdr_features_ok. lia. (* ZifyBool lets [lia] read the boolean conjunction as it stands *) Qed.

Section S.
  Variable rd : N -> N.
  Variable h : hdr.

  Lemma stored_covered c : 0 < rbe h -> stored rd h c <> 0 -> In (c, stored rd h c) (covered_nonzero rd h).
  Proof.
    intros Hr Hs. unfold stored in *. destruct (c / rbe h <? rt_entries h) eqn:Lt; [|contradiction].
    destruct (s_rt_offset (rt_entry rd h (c / rbe h)) =? 0) eqn:Z; [contradiction|].
    unfold covered_nonzero. apply in_flat_map. exists (c / rbe h). split.
    - unfold rt_nonzero. apply filter_In. split; [apply nrange_In; apply N.ltb_lt; exact Lt|rewrite Z; reflexivity].
    - apply filter_In. split.
      + apply in_map_iff. exists (c mod rbe h). split.
        * f_equal. pose proof (N.div_mod' c (rbe h)). lia.
        * apply nrange_In. apply N.mod_lt. lia.
      + cbn [snd]. apply negb_true_iff. apply N.eqb_neq. exact Hs.
  Qed.

  Theorem refcounts_exact_sound :
    0 < rbe h -> refcounts_exact rd h = true -> forall c, stored rd h c = refs rd h c.
  Proof.
    intros Hr E c. unfold refcounts_exact in E. apply andb_prop in E as [E1 E2].
    rewrite forallb_forall in E1, E2. unfold refs.
    destruct (in_dec N.eq_dec c (ref_list rd h)) as [Hin|Hn].
    - apply N.eqb_eq. exact (E1 c Hin).
    - rewrite (count_notin c _ Hn).
      destruct (N.eq_dec (stored rd h c) 0) as [Z|NZ]; [exact Z|].
      specialize (E2 _ (stored_covered c Hr NZ)). cbn [fst] in E2. rewrite (count_notin c _ Hn) in E2. discriminate.
  Qed.

  Theorem refcounts_safe_sound :
    refcounts_safe rd h = true -> forall c, refs rd h c <= stored rd h c.
  Proof.
    intros E c. unfold refcounts_safe in E. rewrite forallb_forall in E. unfold refs.
    destruct (in_dec N.eq_dec c (ref_list rd h)) as [Hin|Hn].
    - apply N.leb_le. exact (E c Hin).
    - rewrite (count_notin c _ Hn). lia.
  Qed.

  Lemma rbe_pos : hdr_supported h = true -> 0 < rbe h.
  Proof.
    intros [F _]%andb_prop. destruct (features_bounds h F) as (Hcb & Hro & _).
    unfold rbe. apply N.div_str_pos. assert (2 ^ h_ro h <= 2 ^ h_cb h) by (apply N.pow_le_mono_r; lia). lia.
  Qed.

  (* [t] stands for the structural checks (tables_ok / tables_ok_gen), which the conclusion does not need *)
  Lemma exact_copied_sound (t : bool) :
    hdr_supported h && t && refcounts_exact rd h && copied_single rd h = true ->
    (forall c, stored rd h c = refs rd h c) /\ (forall c, In c (copied_refs rd h) -> refs rd h c = 1).
  Proof.
    intros V. apply andb_prop in V as [V C]. apply andb_prop in V as [V E]. apply andb_prop in V as [Hs _].
    pose proof (refcounts_exact_sound (rbe_pos Hs) E) as X. split; [exact X|].
    intros c Hc. rewrite <- X. apply N.eqb_eq. exact (proj1 (forallb_forall _ _) C c Hc).
  Qed.

  (* C03: a file accepted by validb has, for every host cluster, stored refcount = number of references; and
     every cluster referenced through a COPIED entry is referenced exactly once *)
  Theorem validb_sound :
    validb rd h = true ->
    (forall c, stored rd h c = refs rd h c) /\ (forall c, In c (copied_refs rd h) -> refs rd h c = 1).
  Proof. exact (exact_copied_sound (tables_ok rd h true)). Qed.

  Theorem validb_short_l1_sound :
    validb_short_l1 rd h = true ->
    (forall c, stored rd h c = refs rd h c) /\ (forall c, In c (copied_refs rd h) -> refs rd h c = 1).
  Proof. exact (exact_copied_sound (tables_ok_gen rd h false true)). Qed.

  Lemma safe_part_sound (t : bool) : t && refcounts_safe rd h = true -> forall c, refs rd h c <= stored rd h c.
  Proof. intros V. apply andb_prop in V as [_ E]. exact (refcounts_safe_sound E). Qed.

  (* C04: a file accepted by safeb has no under-counted cluster at all *)
  Theorem safeb_sound : safeb rd h = true -> forall c, refs rd h c <= stored rd h c.
  Proof. exact (safe_part_sound _). Qed.

  Theorem safeb_short_l1_sound : safeb_short_l1 rd h = true -> forall c, refs rd h c <= stored rd h c.
  Proof. exact (safe_part_sound _). Qed.
End S.
